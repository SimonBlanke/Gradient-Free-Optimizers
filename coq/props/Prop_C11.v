(* C11 — memory_warm_start rows are trusted verbatim and never re-evaluated.  Statements only. *)
Require Import Base StopRun Converter Driver DriverObs DriverFacts ConverterFacts MemFacts C04_proofs C20_proofs C11_proofs.
Require Import PyPrims PyPrimsQ MemGen MemTie.

(* the warm-start frame becomes exactly {position of the row's values |-> score of the LAST such row},
   for dimensions with pairwise distinct values in any order *)
Theorem C11_frame_to_dict : forall (V : Type) sp names (fr : frame V) vals ps,
  distinct_dims sp ->
  subsetb names (fr_cols fr) = true -> fr_rows fr <> [] ->
  map_res (fun r => select_cols (fr_cols fr) names (fst r)) (fr_rows fr) = Ok vals ->
  Forall2 (fun v p => in_box sp p /\ position2value sp p = Ok v) vals ps ->
  dataframe2memory_dict sp names fr = Ok (dict_of_pairs pos_eqb (zip ps (map snd (fr_rows fr)))).
Proof. exact @frame_dict_exact. Qed.
Print Assumptions C11_frame_to_dict.

Theorem C11_last_row_wins : forall (V : Type) (l : list (pos * V)) k,
  dict_get pos_eqb k (dict_of_pairs pos_eqb l) = last_assoc k l.
Proof. exact @dict_of_pairs_last. Qed.
Print Assumptions C11_last_row_wins.

(* and the search never evaluates a position of that dictionary and reports the dictionary's score for it
   (call_record: cr_M0, cr_warm_used, cr_warm_never_called), while every other row equals objective(params)
   (cr_faith) — for every optimizer, deterministic objective and prior history *)
Theorem C11_warm_rows_trusted : forall (OP : optimizer) sp f0 clk, @C04_statement OP sp f0 clk.
Proof. exact (@C04_holds). Qed.
Print Assumptions C11_warm_rows_trusted.

(* non-vacuity: descending space, frame {x=30: score 7}; the optimizer visits 30 twice and 10 once *)
Example C11_nonvacuous :
  let c := mkDcase [[30; 20; 10]] 1 [[0]; [2]; [0]] []
             [([30], mkResult (SFin 1) None); ([20], mkResult (SFin 2) None); ([10], mkResult (SFin 3) None)] []
             [mkCall 3 no_stop true (Some (mkFrame [0] [([30], SFin 7)])) false] false [] in
  match run_case c with
  | Ok [o] => ob_score_l o = [SFin 7; SFin 3; SFin 7] /\ ob_fcalls o = [[10]]
  | _ => False end.
Proof. vm_compute. split; reflexivity. Qed.

Example C11_descending_refuted_unfixed :
  Legacy.values2positions_unfixed_1d [3; 2; 1] [3] = [3] /\ values2positions [[3; 2; 1]] [[3]] = Ok [[0]].
Proof. exact descending_warm_start_key_unfixed. Qed.

(* ---------- the wrapper GENERATED from /repo's _memory.py (generated/MemGen.v) refines the memory branch of the model's lookup,
   which the theorems above are about: for every dictionary state, objective and value vector (parameter names pairwise distinct) *)
Theorem C11_source_memory_wrapper_refines : forall (OP : optimizer) sp names f (s : drv OP) (v : values),
  NoDup names -> length names = length v -> c_memory (d_call s) = true ->
  match g_Memory_wrapper sp names f (mem_of s) (value2para names v) with
  | Ok (g', r) => lookup sp f s v = Ok (r, with_mem s g')
  | Err e => lookup sp f s v = Err e
  end.
Proof. exact (@memory_wrapper_tie). Qed.
Print Assumptions C11_source_memory_wrapper_refines.
