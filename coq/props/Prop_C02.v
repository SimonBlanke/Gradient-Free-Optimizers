(* C02 — constraints hold for every parameter set the objective is evaluated on.  Statements only. *)
Require Import Base StopRun Converter ConverterFacts CoreOpt Tracker Algos Driver DriverFacts CoreFacts AlgoFacts AlgoLift.
Require Import Pop PopFacts Smbo.

(* the rejection loops' only Ok exit is a feasible candidate — for every tape of draws *)
Theorem C02_move_random_feasible : forall sp cons fuel t c p t' c',
  move_random sp cons fuel t c = Ok (p, t', c') -> feasible sp cons p = Ok true.
Proof. intros. destruct (move_random_ok sp cons fuel t c p t' c' H) as [[_ A] _]. exact A. Qed.
Print Assumptions C02_move_random_feasible.

Theorem C02_move_climb_feasible : forall sp cons, dims_ok sp -> forall fuel t c p t' c', nan_free t ->
  move_climb sp cons fuel t c = Ok (p, t', c') -> feasible sp cons p = Ok true.
Proof. intros sp cons Hd fuel t c p t' c' Hn H. destruct (move_climb_ok sp cons Hd fuel t c p t' c' Hn H) as [[_ A] _]. exact A. Qed.
Print Assumptions C02_move_climb_feasible.

(* one step of the seven single-solution optimizers keeps the invariant "initial positions feasible" and emits
   a feasible position, in init and iteration steps, on the random-restart and fallback paths *)
Theorem C02_family_step_contract : forall c, dims_ok (a_sp c) ->
  opt_contract (OP := algo_optimizer c) (algo_inv c) (emit_ok (a_sp c) (a_cons c)).
Proof. exact algo_contract. Qed.
Print Assumptions C02_family_step_contract.

(* hence search_data and best_para of these optimizers never contain a violating parameter set, across calls *)
Theorem C02_family : forall c f clk, dims_ok (a_sp c) -> forall (s s' : drv (algo_optimizer c)) (cl : call),
  0 <= c_n_iter cl -> algo_inv c (d_opt s) -> search (a_sp c) f clk s cl = Ok s' ->
  exists tr : list ev,
    d_pos_l s' = d_pos_l s ++ map ev_pos tr /\ d_rows s' = d_rows s ++ map ev_row tr /\
    Forall (fun e => in_box (a_sp c) (ev_pos e) /\ feasible (a_sp c) (a_cons c) (ev_pos e) = Ok true /\
                     position2value (a_sp c) (ev_pos e) = Ok (ev_val e) /\ a_cons c (ev_val e) = true) tr /\
    algo_inv c (d_opt s') /\ match d_best_value s' with Some v => a_cons c v = true | None => True end.
Proof. exact family_points_genuine_and_feasible. Qed.
Print Assumptions C02_family.

(* for ANY optimizer: if it only emits feasible positions, only feasible rows exist (the driver adds none) *)
Theorem C02_driver_lift : forall (OP : optimizer) sp f clk (Inv : ost OP -> Prop) (Q : pos -> Prop) (s s' : drv OP) (c : call),
  opt_contract Inv Q -> 0 <= c_n_iter c -> Inv (d_opt s) -> search sp f clk s c = Ok s' ->
  exists tr : list ev,
    d_pos_l s' = d_pos_l s ++ map ev_pos tr /\ d_rows s' = d_rows s ++ map ev_row tr /\
    Forall (fun e => Q (ev_pos e) /\ position2value sp (ev_pos e) = Ok (ev_val e)) tr /\
    Inv (d_opt s') /\ match d_best_value s' with Some v => exists e, In e tr /\ ev_val e = v | None => True end.
Proof. exact (@search_contract_lift). Qed.
Print Assumptions C02_driver_lift.

Example C02_nonvacuous :
  let sp := [[0; 1; 2; 3]] in
  let cons := fun v : values => match v with [a] => Z.even a | _ => false end in
  move_random sp cons 10 [DZ 1; DZ 3; DZ 2] 0 = Ok ([2], [], 3).
Proof. vm_compute. reflexivity. Qed.

(* ---------- the iterate step of the population optimizers (theories/Pop.v; float vectors are oracle tape entries) ----------
   whatever the draws and the (NaN-free) oracle vectors: the emitted position lies in the box and satisfies the constraints,
   and at least one constraint evaluation was made *)
Theorem C02_pso_iterate : forall sp cons fuel rrp, dims_ok sp -> forall cur t p t' c, length cur = length sp -> nan_free t ->
  pso_iterate sp cons fuel rrp cur t = Ok (p, t', c) -> emit_ok sp cons p /\ is_suffix t' t /\ 0 < c.
Proof. exact pso_iterate_ok. Qed.
Print Assumptions C02_pso_iterate.
Theorem C02_spiral_iterate : forall sp cons fuel rrp, dims_ok sp -> forall t p t' c, nan_free t ->
  spiral_iterate sp cons fuel rrp t = Ok (p, t', c) -> emit_ok sp cons p /\ is_suffix t' t.
Proof. intros sp cons fuel rrp Hd t p t' c Hn H. destruct (spiral_iterate_ok sp cons fuel rrp Hd t p t' c Hn H) as (A & B & _). auto. Qed.
Print Assumptions C02_spiral_iterate.
Theorem C02_de_iterate : forall sp cons fuel, dims_ok sp -> forall pop target t p t' c, length target = length sp -> nan_free t ->
  de_iterate sp cons fuel pop target t = Ok (p, t', c) -> emit_ok sp cons p /\ is_suffix t' t /\ 0 < c.
Proof. exact de_iterate_ok. Qed.
Print Assumptions C02_de_iterate.
(* recombination of in-box parents (evolution strategy, genetic algorithm), then the constraint test / move_climb fallback *)
Theorem C02_cross_or_climb : forall sp cons fuel, dims_ok sp -> forall parents t p t' c, Forall (in_box sp) parents -> nan_free t ->
  cross_or_climb sp cons fuel parents t = Ok (p, t', c) -> emit_ok sp cons p /\ is_suffix t' t /\ 0 < c.
Proof. exact cross_or_climb_ok. Qed.
Print Assumptions C02_cross_or_climb.

(* evolution strategy: one individual / mutation branch = the member's hill-climbing iterate; crossover branch = recombination of
   two current positions (population order after the unstable argsort is an oracle), constraint test, move_climb fallback *)
Theorem C02_es_iterate : forall sp cons fuel rrp, dims_ok sp -> forall mut curs t p t' c, Forall (in_box sp) curs -> nan_free t ->
  es_iterate sp cons fuel rrp mut curs t = Ok (p, t', c) -> emit_ok sp cons p /\ is_suffix t' t.
Proof. intros sp cons fuel rrp Hd mut curs t p t' c HP Hn H. destruct (es_iterate_ok sp cons fuel rrp Hd mut curs t p t' c HP Hn H) as (A & B & _). auto. Qed.
Print Assumptions C02_es_iterate.

(* genetic algorithm: the crossover branch serves positions from the offspring queue; every position in the queue went through the
   constraint loop when it was created, so whatever is popped is in the box and feasible, and the refilled queue again holds only such
   positions (random.sample with too few fittest parents is Err ValueError: finding F-D9a of C03) *)
Theorem C02_ga_iterate : forall sp cons fuel rrp, dims_ok sp -> forall mut n_parents n_off news queue t p t' c queue',
  Forall (in_box sp) news -> Forall (emit_ok sp cons) queue -> nan_free t ->
  ga_iterate sp cons fuel rrp mut n_parents n_off news queue t = Ok (p, t', c, queue') ->
  emit_ok sp cons p /\ Forall (emit_ok sp cons) queue' /\ is_suffix t' t.
Proof. exact ga_iterate_ok. Qed.
Print Assumptions C02_ga_iterate.

(* pattern search: the head of the pattern list (positions produced through conv2pos, hence in the box) is returned when feasible,
   otherwise replaced by move_climb's feasible neighbour; a random restart leaves the list alone *)
Theorem C02_pattern_iterate : forall sp cons fuel rrp, dims_ok sp -> forall queue t p t' c queue', Forall (in_box sp) queue -> nan_free t ->
  pattern_iterate sp cons fuel rrp queue t = Ok (p, t', c, queue') ->
  emit_ok sp cons p /\ Forall (in_box sp) queue' /\ is_suffix t' t /\ 0 < c.
Proof. exact pattern_iterate_ok. Qed.
Print Assumptions C02_pattern_iterate.

(* downhill simplex: whatever float vector a reflection / expansion / contraction / shrink step computes (any alpha, gamma, beta,
   sigma; NaN excluded), the emitted position is conv2pos of it -- in the box -- or move_climb's feasible neighbour *)
Theorem C02_simplex_iterate : forall sp cons fuel, dims_ok sp -> forall xs t p t' c, length xs = length sp ->
  Forall (fun x => x <> XNaN) xs -> nan_free t ->
  vec_iterate sp cons fuel xs t = Ok (p, t', c) -> emit_ok sp cons p /\ is_suffix t' t /\ 0 < c.
Proof. exact vec_iterate_ok. Qed.
Print Assumptions C02_simplex_iterate.

(* Powell's method / DIRECT: the candidate (a point of the inner line search / the centre of a sub-space; an oracle position that the
   correspondence unit checks to lie in the box on every observed step) is returned when feasible, else replaced by move_climb *)
Theorem C02_powell_iterate : forall sp cons fuel rrp, dims_ok sp -> forall cand t p t' c, in_box_b sp cand = true -> nan_free t ->
  powell_iterate sp cons fuel rrp cand t = Ok (p, t', c) -> emit_ok sp cons p /\ is_suffix t' t.
Proof. intros sp cons fuel rrp Hd cand t p t' c Hb Hn H. destruct (powell_iterate_ok sp cons fuel rrp Hd cand t p t' c Hb Hn H) as (A & B & _). auto. Qed.
Print Assumptions C02_powell_iterate.
Theorem C02_direct_iterate : forall sp cons fuel, dims_ok sp -> forall cand t p t' c, in_box_b sp cand = true -> nan_free t ->
  cand_iterate sp cons fuel cand t = Ok (p, t', c) -> emit_ok sp cons p /\ is_suffix t' t /\ 0 < c.
Proof. exact cand_iterate_ok. Qed.
Print Assumptions C02_direct_iterate.

(* model-based optimizers (Bayesian, forest, TPE, Lipschitz): a proposal accepted by the proposal rule is a member of the candidate set;
   when every candidate lies in the box and satisfies the constraints (checked on every observed candidate set by C17's S-unit), so
   does the proposal *)
Theorem C02_smbo_proposal : forall sp cons (comb : list pos) acq i p, dims_ok sp ->
  forallb (emit_b sp cons) comb = true -> proposal_ok comb acq i p = true -> emit_ok sp cons p.
Proof. exact smbo_proposal_emit. Qed.
Print Assumptions C02_smbo_proposal.

Require Import PyPrims PyPrimsQ CoreGen CoreTie.

(* ---------- the moves GENERATED from /repo's core_optimizer.py (generated/CoreGen.v; ties in proofs/CoreTie.v): the only Ok exit of
   the source's rejection loops is a feasible candidate *)
Theorem C02_source_move_random_feasible : forall sp cons fuel self s' p,
  g_core_move_random sp cons fuel self = Ok (s', p) -> feasible sp cons p = Ok true.
Proof. intros sp cons fuel self s' p H. destruct (source_move_random_ok sp cons fuel self s' p H) as [[_ A] _]. exact A. Qed.
Print Assumptions C02_source_move_random_feasible.

Theorem C02_source_move_climb_feasible : forall sp cons fuel self p0 s' p, dims_ok sp -> nan_free (cg_tape self) ->
  g_core_move_climb sp cons fuel self p0 = Ok (s', p) -> feasible sp cons p = Ok true.
Proof. intros sp cons fuel self p0 s' p Hd Hn H. destruct (source_move_climb_ok sp cons fuel self p0 s' p Hd Hn H) as [[_ A] _]. exact A. Qed.
Print Assumptions C02_source_move_climb_feasible.

Theorem C02_source_random_iteration_feasible : forall sp cons rrp_m rrp_e body fuel self s' p,
  (forall s0 s1 p0, nan_free (cg_tape s0) -> body s0 = Ok (s1, p0) ->
     emit_ok sp cons p0 /\ is_suffix (cg_tape s1) (cg_tape s0) /\ cg_ncalls s0 < cg_ncalls s1) ->
  nan_free (cg_tape self) -> g_core_random_iteration sp cons rrp_m rrp_e body fuel self = Ok (s', p) -> feasible sp cons p = Ok true.
Proof. intros sp cons rm re body fuel self s' p Hb Hn H. destruct (source_random_iteration_ok sp cons rm re body fuel self s' p Hb Hn H) as [[_ A] _]. exact A. Qed.
Print Assumptions C02_source_random_iteration_feasible.

Require Import InitGen InitTie.
(* the random initial positions GENERATED from init_positions.py (_init_random_search, also used by _fill_rest_random and
   add_n_random_init_pos): exactly n of them, each in the box and feasible *)
Theorem C02_source_random_inits_feasible : forall sp cons fuel self n s' l,
  g_Initializer_init_random_search sp cons fuel self n = Ok (s', l) ->
  length l = Z.to_nat n /\ Forall (emit_ok sp cons) l /\ tape_cfg self s'.
Proof. exact init_random_search_spec. Qed.
Print Assumptions C02_source_random_inits_feasible.

(* the whole list of initial positions built by the GENERATED Initializer (random, grid, vertices, warm start, random padding) is feasible,
   provided the two abstract sections (_init_grid_search, _init_vertices: pinned by digest) return feasible positions only *)
Theorem C02_source_init_positions_feasible : forall sp cons names igs iv fuel self0 iz s',
  (forall s n s1 l, igs s n = Ok (s1, l) -> Forall (fun p => not_in_constraint sp cons p = Ok true) l) ->
  (forall s n s1 l, iv s n = Ok (s1, l) -> Forall (fun p => not_in_constraint sp cons p = Ok true) l) ->
  g_Initializer_init sp cons names igs iv fuel self0 iz = Ok s' ->
  Forall (fun p => not_in_constraint sp cons p = Ok true) (in_init_positions_l s').
Proof. exact source_init_positions_feasible. Qed.
Print Assumptions C02_source_init_positions_feasible.
