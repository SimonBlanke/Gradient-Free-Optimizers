(* C17 — model-based proposals maximise the acquisition over sound training data.  Statements only.
   Surrogate fitting and the acquisition function are oracles (sklearn / scipy numerics). *)
Require Import Base Converter CoreOpt Smbo ListFacts MemFacts C17_proofs.

(* the training set after any history of (init?, position, score) steps is the starting (warm-start) set followed
   by exactly the finite-scored evaluations, positions paired with their own scores, in order *)
Theorem C17_training_set_aligned : forall evs s, length (sm_X s) = length (sm_Y s) ->
  sm_X (smbo_run s evs) = sm_X s ++ map fst (finite_events evs) /\
  sm_Y (smbo_run s evs) = sm_Y s ++ map snd (finite_events evs).
Proof. intros evs s _. apply xy_aligned. Qed.
Print Assumptions C17_training_set_aligned.

(* a proposal accepted by the rule is a candidate whose acquisition value no candidate exceeds *)
Theorem C17_proposal_is_argmax : forall comb acq i p, proposal_ok comb acq i p = true ->
  nth_error comb i = Some p /\ exists a, nth_error acq i = Some a /\ forall b, In b acq -> xr_gt b a = false.
Proof. exact proposal_is_argmax. Qed.
Print Assumptions C17_proposal_is_argmax.

(* replacement=False: after any sequence of iteration steps none of the evaluated positions is still a candidate,
   and candidates are only ever removed — so the model path cannot propose a position twice *)
Theorem C17_no_repeat_without_replacement : forall evs s,
  sm_replacement s = false -> (forall e, In e evs -> fst (fst e) = false) ->
  let s' := smbo_run s evs in
  sm_replacement s' = false /\ (forall q, In q (sm_comb s') -> In q (sm_comb s)) /\
  (forall e, In e evs -> ~ In (snd (fst e)) (sm_comb s')).
Proof. exact no_repeat_without_replacement. Qed.
Print Assumptions C17_no_repeat_without_replacement.

Example C17_nonvacuous :
  let s := smbo_run (mkSmbo [] [] [[0]; [1]; [2]; [3]] false)
             [(true, [0], SFin 5); (false, [2], SNaN); (false, [3], SFin 7)] in
  sm_X s = [[0]; [3]] /\ sm_Y s = [SFin 5; SFin 7] /\ sm_comb s = [[0]; [1]] /\
  proposal_ok [[0]; [1]; [2]] [XF 1 0; XF 3 (-1); XF 1 0] 1 [1] = true /\
  proposal_ok [[0]; [1]; [2]] [XF 1 0; XF 3 (-1); XF 1 0] 0 [0] = false.
Proof. vm_compute. repeat split; reflexivity. Qed.

(* NaN acquisition values are outside the guarantee: numpy sorts NaN last, the reversed order puts it first *)
Example C17_nan_acquisition_not_maximal : xr_gt (XF 1 0) XNaN = false /\ proposal_ok [[0]; [1]] [XNaN; XF 1 0] 0 [0] = true.
Proof. vm_compute. split; reflexivity. Qed.

(* TPE: the surrogate is two kernel densities fitted on the best n_best training points and on the others; for every argsort result
   (any permutation of range(n), ties in any order) the two index lists partition the training set: no point is fitted into both
   densities, none is left out *)
Theorem C17_tpe_split_partitions : forall (A : Type) (xs : list A) (d : A) perm n_best,
  is_perm_of_range perm (length xs) = true -> (n_best <= length xs)%nat ->
  let '(ib, iw) := tpe_split perm n_best in
  Permutation.Permutation (map (fun i => nth i xs d) iw ++ map (fun i => nth i xs d) ib) xs /\ length ib = n_best.
Proof. exact @tpe_split_partition. Qed.
Print Assumptions C17_tpe_split_partitions.

Require Import PyPrims PyPrimsQ SmboGen SmboTie.

(* ---------- the SMBO bookkeeping GENERATED from /repo's smb_opt/smbo.py (generated/SmboGen.v; ties in proofs/SmboTie.v) ---------- *)
(* one driver step of the generated code (track_X_sample around the proposal, then the decorated evaluate / evaluate_init) IS the model's
   smbo_step, the step C17_training_set_aligned and C17_no_repeat_without_replacement are about *)
Theorem C17_source_step_refines : forall (iterate_f : g_smbo -> res (g_smbo * pos)) self s1 p sc (init : bool),
  iterate_f self = Ok (s1, p) -> sg_pos_new s1 = p ->
  exists s2 s3, g_SMBO_track_X_sample iterate_f self = Ok (s2, p) /\
                (if init then g_SMBO_evaluate_init s2 sc else g_SMBO_evaluate s2 sc) = Ok s3 /\
                sabs s3 = smbo_step (sabs s1) init p sc.
Proof. exact source_smbo_step. Qed.
Print Assumptions C17_source_step_refines.

(* the source's track_y_sample: a finite score is appended to Y_sample, a NaN / +-inf score removes the X appended for it *)
Theorem C17_source_track_y_refines : forall (evaluate_f : g_smbo -> score -> res g_smbo) self sc s1,
  evaluate_f self sc = Ok s1 -> sg_X_sample s1 <> [] ->
  exists s', g_SMBO_track_y_sample evaluate_f self sc = Ok s' /\ sabs s' = track_y (sabs s1) sc /\ sg_pos_new s' = sg_pos_new s1.
Proof. exact track_y_tie. Qed.
Print Assumptions C17_source_track_y_refines.

(* the source's evaluate: with replacement=False every candidate row equal to the scored position is removed, then the score is tracked *)
Theorem C17_source_evaluate_refines : forall self sc, sg_X_sample self <> [] ->
  exists s', g_SMBO_evaluate self sc = Ok s' /\ sabs s' = smbo_evaluate (sabs self) (sg_pos_new self) sc /\ sg_pos_new s' = sg_pos_new self.
Proof. exact evaluate_tie. Qed.
Print Assumptions C17_source_evaluate_refines.

(* the no-repeat clause for the GENERATED evaluate: with replacement=False the scored position is removed from the candidates (every row
   equal to it), and candidates are only ever removed -- one generated step of C17_no_repeat_without_replacement *)
Theorem C17_source_evaluate_removes_scored_position : forall self sc s', sg_X_sample self <> [] -> sg_replacement self = false ->
  g_SMBO_evaluate self sc = Ok s' ->
  ~ In (sg_pos_new self) (sg_all_pos_comb s') /\ (forall q, In q (sg_all_pos_comb s') -> In q (sg_all_pos_comb self)) /\ sg_replacement s' = false.
Proof. exact source_evaluate_removes. Qed.
Print Assumptions C17_source_evaluate_removes_scored_position.
