(* C01 — every evaluated point is a genuine point of the search space.  Statements only. *)
Require Import Base StopRun Converter ConverterFacts CoreOpt Tracker Algos Driver DriverFacts CoreFacts AlgoFacts AlgoLift Grid GridFacts C16_proofs.
Require Import Pop PopFacts Smbo.

(* (i) the move operators: for EVERY tape of draws (huge, fractional, +-inf samples included) a returned
   position has every index in [0, len-1] *)
Theorem C01_move_random_in_box : forall sp cons fuel t c p t' c',
  move_random sp cons fuel t c = Ok (p, t', c') -> in_box sp p.
Proof. intros. destruct (move_random_ok sp cons fuel t c p t' c' H) as [[A _] _]. exact A. Qed.
Print Assumptions C01_move_random_in_box.

Theorem C01_conv2pos_in_box : forall sp cons, dims_ok sp -> forall fuel xs t c p t' c',
  length xs = length sp -> Forall (fun x => x <> XNaN) xs ->
  conv2pos sp cons fuel xs t c = Ok (p, t', c') -> in_box sp p.
Proof. intros sp cons Hd fuel xs t c p t' c' Hl Hx H. destruct (conv2pos_ok sp cons Hd fuel xs t c p t' c' Hl Hx H) as [A _]. exact A. Qed.
Print Assumptions C01_conv2pos_in_box.

Theorem C01_move_climb_in_box : forall sp cons, dims_ok sp -> forall fuel t c p t' c', nan_free t ->
  move_climb sp cons fuel t c = Ok (p, t', c') -> in_box sp p.
Proof. intros sp cons Hd fuel t c p t' c' Hn H. destruct (move_climb_ok sp cons Hd fuel t c p t' c' Hn H) as [[A _] _]. exact A. Qed.
Print Assumptions C01_move_climb_in_box.

(* the particle / spiral move (astype(int) then clip): in the box for every velocity, also huge, negative, non-finite *)
Theorem C01_move_part_in_box : forall s, dims_ok s -> forall p velo, length p = length s -> length velo = length s ->
  in_box s (move_part s p velo).
Proof. exact move_part_in_box. Qed.
Print Assumptions C01_move_part_in_box.

(* an in-box position is decoded without numpy's negative-index wrapping, to genuine elements *)
Theorem C01_in_box_decodes_genuinely : forall sp p, in_box sp p ->
  exists v, p2v sp p = Ok v /\ Forall2 (fun dim x => In x dim) sp v.
Proof. exact p2v_in_box_ok. Qed.
Print Assumptions C01_in_box_decodes_genuinely.

(* (ii) any optimizer honouring "emits Q-positions" makes search() evaluate only Q-positions; the reported
   position is the very one decoded for the objective (row values = position2value of pos_l's entry) *)
Theorem C01_driver_lift : forall (OP : optimizer) sp f clk (Inv : ost OP -> Prop) (Q : pos -> Prop) (s s' : drv OP) (c : call),
  opt_contract Inv Q -> 0 <= c_n_iter c -> Inv (d_opt s) -> search sp f clk s c = Ok s' ->
  exists tr : list ev,
    d_pos_l s' = d_pos_l s ++ map ev_pos tr /\ d_rows s' = d_rows s ++ map ev_row tr /\
    Forall (fun e => Q (ev_pos e) /\ position2value sp (ev_pos e) = Ok (ev_val e)) tr /\
    Inv (d_opt s') /\ match d_best_value s' with Some v => exists e, In e tr /\ ev_val e = v | None => True end.
Proof. exact (@search_contract_lift). Qed.
Print Assumptions C01_driver_lift.

(* (iii) HillClimbing, StochasticHillClimbing, SimulatedAnnealing, RepulsingHillClimbing,
   RandomRestartHillClimbing, RandomAnnealing, RandomSearch: every point evaluated by search() — in
   initialisation steps, iteration steps and repeated calls — is a genuine feasible point *)
Theorem C01_family : forall c f clk, dims_ok (a_sp c) -> forall (s s' : drv (algo_optimizer c)) (cl : call),
  0 <= c_n_iter cl -> algo_inv c (d_opt s) -> search (a_sp c) f clk s cl = Ok s' ->
  exists tr : list ev,
    d_pos_l s' = d_pos_l s ++ map ev_pos tr /\ d_rows s' = d_rows s ++ map ev_row tr /\
    Forall (fun e => in_box (a_sp c) (ev_pos e) /\ feasible (a_sp c) (a_cons c) (ev_pos e) = Ok true /\
                     position2value (a_sp c) (ev_pos e) = Ok (ev_val e) /\ a_cons c (ev_val e) = true) tr /\
    algo_inv c (d_opt s') /\ match d_best_value s' with Some v => a_cons c v = true | None => True end.
Proof. exact family_points_genuine_and_feasible. Qed.
Print Assumptions C01_family.

(* (iv) grid search: both decodings stay in the box for every pointer *)
Theorem C01_grid_positions_in_box : forall dims, Forall (fun d => 1 <= d) dims ->
  (dims <> [] -> forall p, 0 <= p < zprod dims -> in_dims dims (decode_be dims p)) /\
  (forall x, 0 <= x -> in_dims dims (decode_le dims x)).
Proof. intros dims H. split; [intros _; apply decode_be_in_dims; assumption|intros x _; apply decode_le_in_dims; assumption]. Qed.
Print Assumptions C01_grid_positions_in_box.

(* non-vacuity: a climbing step on a 1x4x3 space with a half-space constraint: 3.25 -> 3 is rejected, 2.5 -> 2 (half to even) accepted *)
Example C01_nonvacuous :
  let sp := [[7]; [0; 1; 2; 3]; [5; 6; 9]] in
  let cons := fun v : values => match v with [_; b; _] => b <=? 2 | _ => false end in
  move_climb sp cons 10 [DF 0 0; DF 13 (-2); DF 1 0;   DF 0 0; DF 5 (-1); DF 1 0] 0 = Ok ([0; 2; 1], [], 2).
Proof. vm_compute. reflexivity. Qed.

(* what happens with a NaN sample (outside the theorem's hypothesis): the position carries int64 min *)
Example C01_nan_sample_refuted :
  conv2pos [[0; 1; 2]] (fun _ => true) 5 [XNaN] [] 0 = Ok ([int64_min], [], 0).
Proof. vm_compute. reflexivity. Qed.

(* ---------- the iterate step of the population optimizers (theories/Pop.v; float vectors are oracle tape entries) ----------
   whatever the draws and the (NaN-free) oracle vectors: the emitted position lies in the box and satisfies the constraints,
   and at least one constraint evaluation was made *)
Theorem C01_pso_iterate : forall sp cons fuel rrp, dims_ok sp -> forall cur t p t' c, length cur = length sp -> nan_free t ->
  pso_iterate sp cons fuel rrp cur t = Ok (p, t', c) -> emit_ok sp cons p /\ is_suffix t' t /\ 0 < c.
Proof. exact pso_iterate_ok. Qed.
Print Assumptions C01_pso_iterate.
Theorem C01_spiral_iterate : forall sp cons fuel rrp, dims_ok sp -> forall t p t' c, nan_free t ->
  spiral_iterate sp cons fuel rrp t = Ok (p, t', c) -> emit_ok sp cons p /\ is_suffix t' t.
Proof. intros sp cons fuel rrp Hd t p t' c Hn H. destruct (spiral_iterate_ok sp cons fuel rrp Hd t p t' c Hn H) as (A & B & _). auto. Qed.
Print Assumptions C01_spiral_iterate.
Theorem C01_de_iterate : forall sp cons fuel, dims_ok sp -> forall pop target t p t' c, length target = length sp -> nan_free t ->
  de_iterate sp cons fuel pop target t = Ok (p, t', c) -> emit_ok sp cons p /\ is_suffix t' t /\ 0 < c.
Proof. exact de_iterate_ok. Qed.
Print Assumptions C01_de_iterate.
(* recombination of in-box parents (evolution strategy, genetic algorithm), then the constraint test / move_climb fallback *)
Theorem C01_cross_or_climb : forall sp cons fuel, dims_ok sp -> forall parents t p t' c, Forall (in_box sp) parents -> nan_free t ->
  cross_or_climb sp cons fuel parents t = Ok (p, t', c) -> emit_ok sp cons p /\ is_suffix t' t /\ 0 < c.
Proof. exact cross_or_climb_ok. Qed.
Print Assumptions C01_cross_or_climb.

(* a NaN in the spiral's float vector is the one way out of the box (np.clip keeps NaN, astype(int) makes it -2^63) *)
Example C01_spiral_nan_refuted : spiral_point [[0; 1; 2]] [XNaN] = [int64_min].
Proof. reflexivity. Qed.
Example C01_pop_nonvacuous :
  de_iterate [[0; 1; 2; 3]; [0; 1; 2]] (fun _ => true) 10 4 [1; 1] [DZ 0; DZ 2; DZ 3; DF 5 (-1); DF (-3) 0; DZ 1; DZ 0] = Ok ([2; 1], [], 1).
Proof. vm_compute. reflexivity. Qed.

(* evolution strategy: one individual / mutation branch = the member's hill-climbing iterate; crossover branch = recombination of
   two current positions (population order after the unstable argsort is an oracle), constraint test, move_climb fallback *)
Theorem C01_es_iterate : forall sp cons fuel rrp, dims_ok sp -> forall mut curs t p t' c, Forall (in_box sp) curs -> nan_free t ->
  es_iterate sp cons fuel rrp mut curs t = Ok (p, t', c) -> emit_ok sp cons p /\ is_suffix t' t.
Proof. intros sp cons fuel rrp Hd mut curs t p t' c HP Hn H. destruct (es_iterate_ok sp cons fuel rrp Hd mut curs t p t' c HP Hn H) as (A & B & _). auto. Qed.
Print Assumptions C01_es_iterate.

(* genetic algorithm: the crossover branch serves positions from the offspring queue; every position in the queue went through the
   constraint loop when it was created, so whatever is popped is in the box and feasible, and the refilled queue again holds only such
   positions (random.sample with too few fittest parents is Err ValueError: finding F-D9a of C03) *)
Theorem C01_ga_iterate : forall sp cons fuel rrp, dims_ok sp -> forall mut n_parents n_off news queue t p t' c queue',
  Forall (in_box sp) news -> Forall (emit_ok sp cons) queue -> nan_free t ->
  ga_iterate sp cons fuel rrp mut n_parents n_off news queue t = Ok (p, t', c, queue') ->
  emit_ok sp cons p /\ Forall (emit_ok sp cons) queue' /\ is_suffix t' t.
Proof. exact ga_iterate_ok. Qed.
Print Assumptions C01_ga_iterate.

(* pattern search: the head of the pattern list (positions produced through conv2pos, hence in the box) is returned when feasible,
   otherwise replaced by move_climb's feasible neighbour; a random restart leaves the list alone *)
Theorem C01_pattern_iterate : forall sp cons fuel rrp, dims_ok sp -> forall queue t p t' c queue', Forall (in_box sp) queue -> nan_free t ->
  pattern_iterate sp cons fuel rrp queue t = Ok (p, t', c, queue') ->
  emit_ok sp cons p /\ Forall (in_box sp) queue' /\ is_suffix t' t /\ 0 < c.
Proof. exact pattern_iterate_ok. Qed.
Print Assumptions C01_pattern_iterate.

(* downhill simplex: whatever float vector a reflection / expansion / contraction / shrink step computes (any alpha, gamma, beta,
   sigma; NaN excluded), the emitted position is conv2pos of it -- in the box -- or move_climb's feasible neighbour *)
Theorem C01_simplex_iterate : forall sp cons fuel, dims_ok sp -> forall xs t p t' c, length xs = length sp ->
  Forall (fun x => x <> XNaN) xs -> nan_free t ->
  vec_iterate sp cons fuel xs t = Ok (p, t', c) -> emit_ok sp cons p /\ is_suffix t' t /\ 0 < c.
Proof. exact vec_iterate_ok. Qed.
Print Assumptions C01_simplex_iterate.

(* Powell's method / DIRECT: the candidate (a point of the inner line search / the centre of a sub-space; an oracle position that the
   correspondence unit checks to lie in the box on every observed step) is returned when feasible, else replaced by move_climb *)
Theorem C01_powell_iterate : forall sp cons fuel rrp, dims_ok sp -> forall cand t p t' c, in_box_b sp cand = true -> nan_free t ->
  powell_iterate sp cons fuel rrp cand t = Ok (p, t', c) -> emit_ok sp cons p /\ is_suffix t' t.
Proof. intros sp cons fuel rrp Hd cand t p t' c Hb Hn H. destruct (powell_iterate_ok sp cons fuel rrp Hd cand t p t' c Hb Hn H) as (A & B & _). auto. Qed.
Print Assumptions C01_powell_iterate.
Theorem C01_direct_iterate : forall sp cons fuel, dims_ok sp -> forall cand t p t' c, in_box_b sp cand = true -> nan_free t ->
  cand_iterate sp cons fuel cand t = Ok (p, t', c) -> emit_ok sp cons p /\ is_suffix t' t /\ 0 < c.
Proof. exact cand_iterate_ok. Qed.
Print Assumptions C01_direct_iterate.

(* model-based optimizers (Bayesian, forest, TPE, Lipschitz): a proposal accepted by the proposal rule is a member of the candidate set;
   when every candidate lies in the box and satisfies the constraints (checked on every observed candidate set by C17's S-unit), so
   does the proposal *)
Theorem C01_smbo_proposal : forall sp cons (comb : list pos) acq i p, dims_ok sp ->
  forallb (emit_b sp cons) comb = true -> proposal_ok comb acq i p = true -> emit_ok sp cons p.
Proof. exact smbo_proposal_emit. Qed.
Print Assumptions C01_smbo_proposal.

Require Import PyPrims PyPrimsQ CoreGen CoreTie.

(* ---------- the moves GENERATED from /repo's core_optimizer.py (generated/CoreGen.v; ties in proofs/CoreTie.v): whatever
   move_random / conv2pos / move_climb / the random_iteration wrapper of the SOURCE return is in the box, for every tape *)
Theorem C01_source_move_random_equals_model : forall sp cons fuel self,
  abs_out (g_core_move_random sp cons fuel self) = move_random sp cons fuel (cg_tape self) (cg_ncalls self).
Proof. exact move_random_tie. Qed.
Print Assumptions C01_source_move_random_equals_model.

Theorem C01_source_conv2pos_equals_model : forall sp cons fuel self xs,
  abs_out (g_core_conv2pos sp cons fuel self xs) = conv2pos sp cons fuel xs (cg_tape self) (cg_ncalls self).
Proof. exact conv2pos_tie. Qed.
Print Assumptions C01_source_conv2pos_equals_model.

Theorem C01_source_move_climb_same_results : forall sp cons fuel self p0,
  (forall s' p, g_core_move_climb sp cons fuel self p0 = Ok (s', p) ->
     exists fuel', move_climb sp cons fuel' (cg_tape self) (cg_ncalls self) = Ok (p, cg_tape s', cg_ncalls s')) /\
  (forall p t' c', move_climb sp cons fuel (cg_tape self) (cg_ncalls self) = Ok (p, t', c') ->
     g_core_move_climb sp cons fuel self p0 = Ok (mkGCore t' c', p)).
Proof. intros. split; [apply move_climb_tie_sound|apply move_climb_tie_complete]. Qed.
Print Assumptions C01_source_move_climb_same_results.

Theorem C01_source_move_random_in_box : forall sp cons fuel self s' p,
  g_core_move_random sp cons fuel self = Ok (s', p) -> in_box sp p.
Proof. intros sp cons fuel self s' p H. destruct (source_move_random_ok sp cons fuel self s' p H) as [[A _] _]. exact A. Qed.
Print Assumptions C01_source_move_random_in_box.

Theorem C01_source_conv2pos_in_box : forall sp cons fuel self xs s' p, dims_ok sp -> length xs = length sp ->
  Forall (fun x => x <> XNaN) xs -> g_core_conv2pos sp cons fuel self xs = Ok (s', p) -> in_box sp p.
Proof. intros sp cons fuel self xs s' p Hd Hl Hx H. destruct (source_conv2pos_ok sp cons fuel self xs s' p Hd Hl Hx H) as [A _]. exact A. Qed.
Print Assumptions C01_source_conv2pos_in_box.

Theorem C01_source_move_climb_in_box : forall sp cons fuel self p0 s' p, dims_ok sp -> nan_free (cg_tape self) ->
  g_core_move_climb sp cons fuel self p0 = Ok (s', p) -> in_box sp p.
Proof. intros sp cons fuel self p0 s' p Hd Hn H. destruct (source_move_climb_ok sp cons fuel self p0 s' p Hd Hn H) as [[A _] _]. exact A. Qed.
Print Assumptions C01_source_move_climb_in_box.

(* the decorator: for ANY decorated iterate whose results are in the box, so are the decorated function's *)
Theorem C01_source_random_iteration_in_box : forall sp cons rrp_m rrp_e body fuel self s' p,
  (forall s0 s1 p0, nan_free (cg_tape s0) -> body s0 = Ok (s1, p0) ->
     emit_ok sp cons p0 /\ is_suffix (cg_tape s1) (cg_tape s0) /\ cg_ncalls s0 < cg_ncalls s1) ->
  nan_free (cg_tape self) -> g_core_random_iteration sp cons rrp_m rrp_e body fuel self = Ok (s', p) -> in_box sp p.
Proof. intros sp cons rm re body fuel self s' p Hb Hn H. destruct (source_random_iteration_ok sp cons rm re body fuel self s' p Hb Hn H) as [[A _] _]. exact A. Qed.
Print Assumptions C01_source_random_iteration_in_box.

Require Import ConvGen ConvTie.
(* genuine decoding for the position2value GENERATED from converter.py: it is the model's function, so C01_in_box_decodes_genuinely is about
   what the source says now *)
Theorem C01_source_position2value_equals_model : forall sp p, g_Converter_position2value sp p = position2value sp p.
Proof. exact position2value_tie. Qed.
Print Assumptions C01_source_position2value_equals_model.
