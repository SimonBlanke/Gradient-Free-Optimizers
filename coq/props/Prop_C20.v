(* C20 — position / value / parameter / memory conversions are mutually inverse.  Statements only. *)
Require Import Base Converter ConverterFacts ListFacts MemFacts C20_proofs Legacy.

(* every in-box position of a space with pairwise distinct values per dimension (ANY order) survives
   position -> value -> position *)
Theorem C20_position_roundtrip : forall sp p v, distinct_dims sp -> in_box sp p ->
  position2value sp p = Ok v -> value2position sp v = Ok p.
Proof. exact position_roundtrip. Qed.
Print Assumptions C20_position_roundtrip.

(* value -> position -> value for every member vector (no distinctness needed) *)
Theorem C20_value_roundtrip : forall sp p v, position2value sp p = Ok v ->
  exists key, value2position sp v = Ok key /\ position2value sp key = Ok v.
Proof. exact value_roundtrip. Qed.
Print Assumptions C20_value_roundtrip.

Theorem C20_para_roundtrip : forall names v, NoDup names -> length names = length v ->
  para2value names (value2para names v) = Ok v.
Proof. exact para_roundtrip. Qed.
Print Assumptions C20_para_roundtrip.

(* the batched conversions agree element-wise with the single ones (any order, any values) *)
Theorem C20_batched_v2p : forall sp vals ps, vals <> [] ->
  map_res (value2position sp) vals = Ok ps -> values2positions sp vals = Ok ps.
Proof. exact batched_v2p_eq_single. Qed.
Print Assumptions C20_batched_v2p.
Theorem C20_batched_p2v : forall sp ps vs, ps <> [] ->
  map_res (position2value sp) ps = Ok vs -> positions2values sp ps = Ok vs.
Proof. exact batched_p2v_eq_single. Qed.
Print Assumptions C20_batched_p2v.

(* memory dictionary -> dataframe -> memory dictionary returns the same keys and scores *)
Theorem C20_memdict_frame_roundtrip : forall (V : Type) sp names (d : list (pos * V)),
  distinct_dims sp -> NoDup names -> length names = length sp ->
  d <> [] -> NoDup (map fst d) -> Forall (in_box sp) (map fst d) ->
  exists fr, memory_dict2dataframe sp names d = Ok fr /\ dataframe2memory_dict sp names fr = Ok d.
Proof. exact @memdict_frame_roundtrip. Qed.
Print Assumptions C20_memdict_frame_roundtrip.

(* non-vacuity on a shuffled 2-D space *)
Example C20_nonvacuous :
  let sp := [[30; 10; 20]; [5; (-5)]] in
  position2value sp [2; 1] = Ok [20; (-5)] /\ value2position sp [20; (-5)] = Ok [2; 1] /\
  values2positions sp [[20; (-5)]; [30; 5]] = Ok [[2; 1]; [0; 0]] /\
  (exists fr, memory_dict2dataframe sp [0; 1] [([2; 1], 7); ([0; 0], 9)] = Ok fr /\
              dataframe2memory_dict sp [0; 1] fr = Ok [([2; 1], 7); ([0; 0], 9)]).
Proof.
  cbv zeta. repeat split; try (vm_compute; reflexivity).
  (* the frame first: evaluating the second equation with the frame still a variable unfolds dataframe2memory_dict symbolically *)
  eexists. split; [vm_compute; reflexivity|]. vm_compute. reflexivity.
Qed.

(* record of defect D3 (fixed in /repo): searchsorted on a descending array maps the member 5 to index 5 *)
Example C20_batched_descending_refuted_unfixed :
  values2positions_unfixed_1d [5; 4; 3; 2; 1] [5; 3; 1] = [5; 0; 0] /\
  values2positions [[5; 4; 3; 2; 1]] [[5]; [3]; [1]] = Ok [[0]; [2]; [4]].
Proof. vm_compute. split; reflexivity. Qed.

Require Import PyPrims PyPrimsQ ConvGen ConvTie.
(* ---------- the single conversions GENERATED from /repo's converter.py (generated/ConvGen.v) are EQUAL to the model (proofs/ConvTie.v):
   results and errors, for every space, name list and argument ---------- *)
Theorem C20_source_position2value_equals_model : forall sp p, g_Converter_position2value sp p = position2value sp p.
Proof. exact position2value_tie. Qed.
Print Assumptions C20_source_position2value_equals_model.
Theorem C20_source_value2position_equals_model : forall sp v, g_Converter_value2position sp v = value2position sp v.
Proof. exact value2position_tie. Qed.
Print Assumptions C20_source_value2position_equals_model.
Theorem C20_source_value2para_equals_model : forall names v, g_Converter_value2para names v = Ok (value2para names v).
Proof. exact value2para_tie. Qed.
Print Assumptions C20_source_value2para_equals_model.
Theorem C20_source_para2value_equals_model : forall names p, g_Converter_para2value names p = para2value names p.
Proof. exact para2value_tie. Qed.
Print Assumptions C20_source_para2value_equals_model.

(* the round trips, stated for the generated functions *)
Theorem C20_source_position_roundtrip : forall sp p v, distinct_dims sp -> in_box sp p ->
  g_Converter_position2value sp p = Ok v -> g_Converter_value2position sp v = Ok p.
Proof. intros sp p v Hd Hb H. rewrite position2value_tie in H. rewrite value2position_tie. exact (position_roundtrip sp p v Hd Hb H). Qed.
Print Assumptions C20_source_position_roundtrip.

Theorem C20_source_value_roundtrip : forall sp p v, g_Converter_position2value sp p = Ok v ->
  exists key, g_Converter_value2position sp v = Ok key /\ g_Converter_position2value sp key = Ok v.
Proof.
  intros sp p v H. rewrite position2value_tie in H. destruct (value_roundtrip sp p v H) as (key & A & B).
  exists key. rewrite value2position_tie, position2value_tie. split; assumption.
Qed.
Print Assumptions C20_source_value_roundtrip.

Theorem C20_source_para_roundtrip : forall names v, NoDup names -> length names = length v ->
  exists p, g_Converter_value2para names v = Ok p /\ g_Converter_para2value names p = Ok v.
Proof.
  intros names v Hn Hl. exists (value2para names v). rewrite value2para_tie, para2value_tie. split; [reflexivity|exact (para_roundtrip names v Hn Hl)].
Qed.
Print Assumptions C20_source_para_roundtrip.
