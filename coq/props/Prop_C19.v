(* C19 — tracked best / current states are grounded in real evaluations.  Statements only. *)
Require Import Base PyPrims StopRun Converter ConverterFacts CoreOpt Tracker Algos Driver DriverFacts CoreFacts AlgoFacts AlgoLift.
Require Import TrackerGen TrackerTie SourceTracker.

(* one driver step (proposal + evaluation of ITS score) keeps every tracked pair among the evaluated pairs,
   for the seven single-solution optimizers, any draws, any (also non-finite) score *)
Theorem C19_family_step_grounded : forall c, opt_hist_contract (OP := algo_optimizer c) algo_grounded.
Proof. exact algo_hist_contract. Qed.
Print Assumptions C19_family_step_grounded.

(* ... hence after any search() call, at every step: current, best and the valid lists are real evaluations *)
Theorem C19_family_grounded : forall c f clk (s s' : drv (algo_optimizer c)) (cl : call) H0,
  0 <= c_n_iter cl -> grounded (h_trk (d_opt s)) H0 -> search (a_sp c) f clk s cl = Ok s' ->
  exists tr : list ev, d_pos_l s' = d_pos_l s ++ map ev_pos tr /\ d_score_l s' = d_score_l s ++ map ev_score tr /\
    grounded (h_trk (d_opt s')) (H0 ++ map ev_pair tr).
Proof. exact family_tracked_pairs_grounded. Qed.
Print Assumptions C19_family_grounded.

(* for ANY optimizer with a history-indexed invariant the driver feeds exactly (proposal, its own score) pairs *)
Theorem C19_driver_lift : forall (OP : optimizer) sp f clk (J : ost OP -> list (pos * score) -> Prop) (s s' : drv OP) (c : call) H0,
  opt_hist_contract J -> 0 <= c_n_iter c -> J (d_opt s) H0 -> search sp f clk s c = Ok s' ->
  exists tr : list ev, d_pos_l s' = d_pos_l s ++ map ev_pos tr /\ d_score_l s' = d_score_l s ++ map ev_score tr /\
    J (d_opt s') (H0 ++ map ev_pair tr).
Proof. exact (@search_hist_lift). Qed.
Print Assumptions C19_driver_lift.

(* the greedy updates never decrease the tracked best / current score *)
Theorem C19_best_monotone : forall k p s, sgt (t_score_best k) (t_score_best (eval2best k p s)) = false.
Proof. exact eval2best_monotone. Qed.
Print Assumptions C19_best_monotone.
Theorem C19_current_monotone_greedy : forall k p s, sgt (t_score_cur k) (t_score_cur (eval2current k p s)) = false.
Proof. exact eval2current_monotone. Qed.
Print Assumptions C19_current_monotone_greedy.

(* ---- the same, for the definitions GENERATED from /repo's source on this run (generated/TrackerGen.v) ---- *)
(* HillClimbingOptimizer.evaluate as translated from the source refines the model's hc_evaluate, for every state
   (aligned, finite valid lists) and every score, errors included *)
Theorem C19_source_hc_evaluate_refines : forall g s, ginv g -> 0 <= f_n_neighbours g ->
  rres (g_HillClimbingOptimizer_evaluate g s) (hc_evaluate (f_n_neighbours g) (abs g) s) (f_n_neighbours g).
Proof. intros g s I. apply hc_evaluate_tie, trk_tied_abs, I. Qed.
Print Assumptions C19_source_hc_evaluate_refines.

(* every state the translated tracker code can reach by (record proposal, evaluate its score) steps -- through
   evaluate_init, HillClimbingOptimizer.evaluate, Spiral.evaluate or BaseOptimizer.evaluate, in any order, any
   scores -- has its new / current / best pairs and its valid lists among the pairs it was given *)
Theorem C19_source_tracker_grounded : forall n ops g, 0 <= n -> srun (g_init n) ops = Ok g ->
  grounded (abs g) (map sop_pair ops) /\
  length (f_positions_valid g) = length (f_scores_valid g) /\ Forall (fun s => is_finite s = true) (f_scores_valid g).
Proof. exact source_tracker_grounded. Qed.
Print Assumptions C19_source_tracker_grounded.

Example C19_source_nonvacuous :
  match srun (g_init 3) [SInit [1] (SFin 5); SHill [2] SNaN; SHill [4] (SFin 7); SHill [0] (SFin 1); SHill [6] SNInf] with
  | Ok g => f_pos_best g = Some [4] /\ f_score_best g = SFin 7 /\ f_scores_valid g = [SFin 5; SFin 7; SFin 1] /\ f_nth_trial g = 5
  | Err _ => False end.
Proof. vm_compute. repeat split. Qed.

Example C19_nonvacuous :
  let k0 := track_new_pos trk_init [1] in
  match evaluate_init k0 (SFin 5) with
  | Ok k1 => grounded k1 [([1], SFin 5)] /\ t_pos_best k1 = Some [1]
  | Err _ => False end.
Proof. vm_compute. split; [constructor; cbn; [left; reflexivity|left; reflexivity|constructor; [cbn; left; reflexivity|constructor]]|reflexivity]. Qed.

Require Import PyPrims PyPrimsQ CoreOpt Algos ShcGen ShcTie.
(* the acceptance step of StochasticHillClimbing / SimulatedAnnealing GENERATED from the source (generated/ShcGen.v): after it the tracked
   current pair is the pair just evaluated or the previous current pair, and the tracked best pair is untouched *)
Theorem C19_source_stochastic_step_grounded : forall (g g' : g_shc) (s : score),
  sle s (t_score_cur (sh_trk g)) = true -> g_SHC_evaluate g s = Ok g' ->
  ((t_pos_cur (sh_trk g') = t_pos_new (sh_trk g) /\ t_score_cur (sh_trk g') = s) \/
   (t_pos_cur (sh_trk g') = t_pos_cur (sh_trk g) /\ t_score_cur (sh_trk g') = t_score_cur (sh_trk g))) /\
  t_pos_best (sh_trk g') = t_pos_best (sh_trk g) /\ t_score_best (sh_trk g') = t_score_best (sh_trk g).
Proof. exact source_transition_grounded. Qed.
Print Assumptions C19_source_stochastic_step_grounded.
