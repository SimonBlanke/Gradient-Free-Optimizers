(* C20 — position / value / parameter / memory conversions are mutually inverse. *)
Require Import Base BaseFacts Converter ListFacts DictFacts ConverterFacts.

Theorem value_roundtrip sp p v : position2value sp p = Ok v ->
  exists key, value2position sp v = Ok key /\ position2value sp key = Ok v.
Proof. intros H. destruct (value2position_of_position2value sp p v H) as (k & A & B & _). eauto. Qed.

(* distinct names: value2para is the zip itself, and every name reads its own value back *)
Theorem para_roundtrip names v : NoDup names -> length names = length v ->
  para2value names (value2para names v) = Ok v.
Proof.
  intros Hn Hl. destruct (zip_unzip names v Hl) as [Hf _]. rewrite <- Hf in Hn.
  unfold value2para. rewrite (dict_of_pairs_nodup Z.eqb_spec) by exact Hn.
  apply map_res_ok, Forall2_zip; [exact Hl|]. intros k x Hin.
  rewrite (dict_in_get Z.eqb_spec k x _ Hn Hin). reflexivity.
Qed.

Lemma transpose_cons_col {B} (col : list B) (cols : list (list B)) (rows : list (list B)) :
  length col = length rows -> transpose_cols (length rows) cols = rows ->
  transpose_cols (length rows) (col :: cols) = map (fun yr => fst yr :: snd yr) (zip col rows).
Proof.
  revert col cols. induction rows as [|r rows IH]; intros col cols Hl Ht.
  - destruct col; [reflexivity|discriminate].
  - destruct col as [|y col]; [discriminate|]. cbn [length transpose_cols] in *.
    destruct (map_res (fun c => match c with x :: _ => Ok x | [] => Err IndexError end) cols) as [heads|] eqn:Eh; [|discriminate].
    injection Ht as Hh Hr. cbn. rewrite Eh. cbn. f_equal; [congruence|]. apply IH; [cbn in Hl; lia|exact Hr].
Qed.

(* values2positions and positions2values are one column-wise loop, with g = nearest_index and g = nth_py *)
Section Batched.
  Context {A B : Type} (g : list Z -> A -> res B).

  Fixpoint cols_conv (sp : space) (rows : list (list A)) (n : Z) : res (list (list B)) :=
    match sp with
    | [] => Ok []
    | dim :: tl =>
        do col <- column rows n;
        do pcol <- map_res (g dim) col;
        do rest <- cols_conv tl rows (n + 1);
        Ok (pcol :: rest)
    end.
  Definition batched_conv (sp : space) (rows : list (list A)) : res (list (list B)) :=
    match rows with
    | [] => Err IndexError
    | _ => do cols <- cols_conv sp rows 0; Ok (transpose_cols (length rows) cols)
    end.

  Lemma cols_peel dim sp rows n outs : 0 <= n ->
    Forall2 (fun r o => row_conv g (dim :: sp) (skipn (Z.to_nat n) r) = Ok o) rows outs ->
    exists col pcol routs, column rows n = Ok col /\ map_res (g dim) col = Ok pcol /\
      Forall2 (fun r o => row_conv g sp (skipn (Z.to_nat (n + 1)) r) = Ok o) rows routs /\
      outs = map (fun yr => fst yr :: snd yr) (zip pcol routs) /\ length pcol = length rows.
  Proof.
    intros Hn. replace (Z.to_nat (n + 1)) with (S (Z.to_nat n)) by lia.
    induction 1 as [|r o rows outs Hr _ (col & pcol & routs & A1 & A2 & A3 & -> & A5)].
    - exists [], [], []. repeat split; constructor.
    - pose proof (nth_nowrap_skipn r n Hn) as Hx. pose proof (skipn_succ r (Z.to_nat n)) as Ht.
      destruct (skipn (Z.to_nat n) r) as [|x r']; [discriminate|]. cbn in Hr, Ht.
      apply bind_ok in Hr. destruct Hr as (y & Hy & Hr). apply bind_ok in Hr. destruct Hr as (ys & Hys & [= <-]).
      exists (x :: col), (y :: pcol), (ys :: routs). unfold column in *. cbn. rewrite Hx, A1, Hy, A2. cbn.
      repeat split; [|congruence]. constructor; [rewrite Ht|]; assumption.
  Qed.

  Lemma cols_conv_rows sp : forall rows n outs, 0 <= n ->
    Forall2 (fun r o => row_conv g sp (skipn (Z.to_nat n) r) = Ok o) rows outs ->
    exists cols, cols_conv sp rows n = Ok cols /\ transpose_cols (length rows) cols = outs.
  Proof.
    induction sp as [|dim sp IH]; intros rows n outs Hn H.
    - exists []. split; [reflexivity|].
      induction H as [|r o rows outs [= <-] _ IH]; cbn; [|rewrite IH]; reflexivity.
    - destruct (cols_peel dim sp rows n outs Hn H) as (col & pcol & routs & A1 & A2 & A3 & -> & A5).
      destruct (IH rows (n + 1) routs ltac:(lia) A3) as (cols & B1 & B2).
      exists (pcol :: cols). cbn [cols_conv]. rewrite A1. cbn. rewrite A2. cbn. rewrite B1. cbn.
      split; [reflexivity|]. rewrite (Forall2_length _ _ _ A3) in *. apply transpose_cons_col; assumption.
  Qed.

  Theorem batched_eq_single sp rows outs : rows <> [] ->
    map_res (row_conv g sp) rows = Ok outs -> batched_conv sp rows = Ok outs.
  Proof.
    intros Hne H. apply map_res_ok in H. destruct (cols_conv_rows sp rows 0 outs (Z.le_refl 0) H) as (cols & C1 & <-).
    unfold batched_conv. rewrite C1. destruct rows; [contradiction|reflexivity].
  Qed.
End Batched.

(* the model's batched loops are separate Fixpoints with nearest_index / nth_py written in; each is cols_conv after beta, so
   these hold by conversion *)
Lemma values2positions_conv sp vals : values2positions sp vals = batched_conv nearest_index sp vals.
Proof. reflexivity. Qed.
Lemma positions2values_conv sp ps : positions2values sp ps = batched_conv (@nth_py Z) sp ps.
Proof. reflexivity. Qed.

Theorem batched_v2p_eq_single sp vals ps : vals <> [] ->
  map_res (value2position sp) vals = Ok ps -> values2positions sp vals = Ok ps.
Proof.
  intros Hne H. rewrite values2positions_conv. apply (batched_eq_single _ sp vals ps Hne). etransitivity; [|exact H].
  apply map_res_ext_in. intros v _. symmetry. apply value2position_zip.
Qed.

Theorem batched_p2v_eq_single sp ps vs : ps <> [] ->
  map_res (position2value sp) ps = Ok vs -> positions2values sp ps = Ok vs.
Proof.
  intros Hne H. rewrite positions2values_conv. apply (batched_eq_single _ sp ps vs Hne). etransitivity; [|exact H].
  apply map_res_ext_in. intros p _. symmetry. apply position2value_zip.
Qed.

Theorem frame_dict_exact {V} sp names (fr : frame V) vals ps :
  distinct_dims sp ->
  subsetb names (fr_cols fr) = true -> fr_rows fr <> [] ->
  map_res (fun r => select_cols (fr_cols fr) names (fst r)) (fr_rows fr) = Ok vals ->
  Forall2 (fun v p => in_box sp p /\ position2value sp p = Ok v) vals ps ->
  dataframe2memory_dict sp names fr = Ok (dict_of_pairs pos_eqb (zip ps (map snd (fr_rows fr)))).
Proof.
  intros Hd Hsub Hne Hsel HF. unfold dataframe2memory_dict. rewrite Hsub, Hsel. cbn [bind].
  assert (Hv : map_res (value2position sp) vals = Ok ps).
  { apply map_res_ok. eapply Forall2_impl; [|exact HF]. intros v p [Hb Hp]. exact (position_roundtrip sp p v Hd Hb Hp). }
  assert (Hvne : vals <> []).
  { intros ->. apply map_res_length in Hsel. destruct (fr_rows fr); [contradiction|discriminate]. }
  rewrite (batched_v2p_eq_single sp vals ps Hvne Hv). reflexivity.
Qed.

Lemma subsetb_refl names : subsetb names names = true.
Proof. apply forallb_forall. intros x Hx. apply existsb_exists. exists x. split; [assumption|apply Z.eqb_refl]. Qed.

(* the frame written from a dictionary is read back by frame_dict_exact: its rows hold the decoded keys *)
Theorem memdict_frame_roundtrip {V} sp names (d : list (pos * V)) :
  distinct_dims sp -> NoDup names -> length names = length sp ->
  d <> [] -> NoDup (map fst d) -> Forall (in_box sp) (map fst d) ->
  exists fr, memory_dict2dataframe sp names d = Ok fr /\ dataframe2memory_dict sp names fr = Ok d.
Proof.
  intros Hd Hn Hl Hne Hnd Hbox.
  (* vs : list (list Z), and the frame given in full below: with [values] left in a type argument, as unfolding the model
     leaves it, rewrite finds no instance of the zip equations *)
  destruct (Forall_exists_Forall2 (fun p (v : list Z) => in_box sp p /\ position2value sp p = Ok v) (map fst d)) as [vs Hvs].
  { eapply Forall_impl; [|exact Hbox]. intros p Hp. destruct (p2v_in_box_ok sp p Hp) as (v & Hv & _).
    exists v. rewrite position2value_zip. auto. }
  assert (Hp2v : map_res (position2value sp) (map fst d) = Ok vs).
  { apply map_res_ok. eapply Forall2_impl; [|exact Hvs]. intros p v [_ Hp]. exact Hp. }
  assert (Hlen : length vs = length (map snd d)) by (rewrite <- (Forall2_length _ _ _ Hvs), !map_length; reflexivity).
  destruct (zip_unzip vs (map snd d) Hlen) as [Hzf Hzs].
  assert (Hps : map fst d <> []) by (destruct d; [contradiction|discriminate]).
  unfold memory_dict2dataframe, memory_dict2positions_scores. rewrite (batched_p2v_eq_single sp (map fst d) vs Hps Hp2v).
  exists (mkFrame names (zip vs (map snd d))). split; [reflexivity|].
  rewrite (frame_dict_exact sp names _ vs (map fst d) Hd); cbn [fr_cols fr_rows].
  - rewrite Hzs, zip_fst_snd, (dict_of_pairs_nodup pos_eqb_spec) by exact Hnd. reflexivity.
  - apply subsetb_refl.
  - (* the frame has a row: d has one, and vs is as long (Hlen) *)
    destruct d; [contradiction|]. destruct vs; discriminate.
  - (* every row selects itself *)
    rewrite <- Hzf at 2. rewrite <- map_res_pure. apply map_res_ext_in. intros [v s] Hin.
    apply para_roundtrip; [exact Hn|]. rewrite zip_combine in Hin. apply in_combine_l in Hin.
    destruct (Forall2_in_l _ _ _ _ (Forall2_flip _ _ _ Hvs) Hin) as (p & _ & _ & Hp).
    rewrite Hl. symmetry. exact (position2value_length sp p v Hp).
  - exact (Forall2_flip _ _ _ Hvs).
Qed.
