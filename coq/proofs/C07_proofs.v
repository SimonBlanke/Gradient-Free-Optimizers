(* C07 — a fixed random_state makes a run exactly reproducible. *)
Require Import Base Rng.

Section C07.
  Variables (R NP : Type).
  Variable seed_py : Z -> R.
  Variable seed_np : Z -> NP.
  Variable np_randint : NP -> Z * NP.
  Notation ssr := (set_random_seed R NP seed_py seed_np np_randint).

  (* ASSUMED, not provable in a model: whatever happens after construction is a function of the two generators' states, i.e.
     every stochastic choice of the library goes through them (the harness logs every draw and seeding to check it on each run) *)
  Variable Out : Type.
  Variable run : gens R NP -> Out.

  Theorem seed_overrides_ambient (nth : option Z) (s : Z) (amb1 amb2 : gens R NP) :
    ssr nth (Some s) amb1 = ssr nth (Some s) amb2 /\
    run (snd (ssr nth (Some s) amb1)) = run (snd (ssr nth (Some s) amb2)).
  Proof. unfold set_random_seed. split; reflexivity. Qed.

  Theorem random_seed_is_state_plus_process (nth : option Z) (s : Z) amb :
    fst (ssr nth (Some s) amb) = s + match nth with Some n => n | None => 0 end.
  Proof. reflexivity. Qed.

  (* a run made with random_state=None is replayed by passing (random_seed - nth_process) as random_state;
     hence by passing random_seed itself exactly when nth_process is None or 0 *)
  Theorem replay_none_general (nth : option Z) amb amb' :
    let n := match nth with Some n => n | None => 0 end in
    let seed := fst (ssr nth None amb) in
    ssr nth (Some (seed - n)) amb' = (seed, snd (ssr nth None amb)).
  Proof.
    unfold set_random_seed. destruct (np_randint (snd amb)) as [v np1].
    destruct nth as [n|]; cbn [fst snd].
    - replace (v + n - n + n) with (v + n) by lia. reflexivity.
    - replace (v + 0 - 0 + 0) with (v + 0) by lia. reflexivity.
  Qed.

  Corollary replay_none (nth : option Z) amb amb' :
    (nth = None \/ nth = Some 0) ->
    let seed := fst (ssr nth None amb) in
    snd (ssr nth (Some seed) amb') = snd (ssr nth None amb) /\ fst (ssr nth (Some seed) amb') = seed /\
    run (snd (ssr nth (Some seed) amb')) = run (snd (ssr nth None amb)).
  Proof.
    intros H. cbv zeta. pose proof (replay_none_general nth amb amb') as G. cbv zeta in G.
    assert (E : fst (ssr nth None amb) - match nth with Some n => n | None => 0 end = fst (ssr nth None amb))
      by (destruct H as [->| ->]; lia).
    rewrite E in G. rewrite G. auto.
  Qed.

  (* nested optimizers: the seeds the members receive, and the final generator state, are functions of the
     generator state right after the parent's seeding — so they inherit reproducibility *)
  Theorem members_inherit (nth : option Z) (s : Z) (n : nat) amb1 amb2 :
    build_members R NP seed_py seed_np np_randint n (snd (ssr nth (Some s) amb1)) =
    build_members R NP seed_py seed_np np_randint n (snd (ssr nth (Some s) amb2)).
  Proof. reflexivity. Qed.
End C07.

(* replay_none needs its hypothesis: with nth_process = 2 the replay through random_seed does not reproduce the seeds *)
Example replay_needs_process_zero :
  let ssr := set_random_seed Z Z (fun z => z) (fun z => z) (fun np => (np + 7, np + 1)) in
  let seed := fst (ssr (Some 2) None (0, 100)) in
  snd (ssr (Some 2) (Some seed) (0, 0)) <> snd (ssr (Some 2) None (0, 100)).
Proof. vm_compute. intros H. inversion H. Qed.
