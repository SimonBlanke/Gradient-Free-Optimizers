(* ListFacts.v — list lemmas missing from Coq 8.16's standard library, and the lemmas of Base.v's
   own list helpers (pos_eqb, map_res, nth_py / nth_nowrap, argmax_first / argmax_last, zmax_list, last_n). *)
Require Import Base BaseFacts.

Lemma Forall2_length {A B} (R : A -> B -> Prop) l l' : Forall2 R l l' -> length l = length l'.
Proof. induction 1; cbn; congruence. Qed.

Lemma Forall2_impl {A B} (R R' : A -> B -> Prop) l l' :
  (forall x y, R x y -> R' x y) -> Forall2 R l l' -> Forall2 R' l l'.
Proof. intros H. induction 1; constructor; auto. Qed.

Lemma Forall2_flip {A B} (R : A -> B -> Prop) l l' : Forall2 R l l' -> Forall2 (fun y x => R x y) l' l.
Proof. induction 1; constructor; assumption. Qed.

Lemma Forall2_in_l {A B} (R : A -> B -> Prop) l l' x : Forall2 R l l' -> In x l -> exists y, In y l' /\ R x y.
Proof.
  induction 1 as [|a b l l' Hab _ IH]; intros Hin; [contradiction|].
  destruct Hin as [<-|Hin]; [exists b; cbn; auto|]. destruct (IH Hin) as (y & Hy & Hxy). exists y. cbn. auto.
Qed.

Lemma Forall_exists_Forall2 {A B} (R : A -> B -> Prop) l : Forall (fun x => exists y, R x y) l -> exists l', Forall2 R l l'.
Proof.
  induction 1 as [|x l [y Hy] _ [l' IH]]; [exists []; constructor|]. exists (y :: l'). constructor; assumption.
Qed.

Lemma forall_snoc {A} (P : A -> Prop) l x : (forall y, In y l -> P y) -> P x -> forall y, In y (l ++ [x]) -> P y.
Proof. intros Hl Hx y Hin. apply in_app_or in Hin. destruct Hin as [Hin|[<-|[]]]; auto. Qed.

Lemma NoDup_app_snoc {A} (l : list A) x : NoDup l -> ~ In x l -> NoDup (l ++ [x]).
Proof. intros Hn Hx. apply (NoDup_Add (Add_app x l [])). rewrite app_nil_r. exact (conj Hn Hx). Qed.

Lemma NoDup_map_inj {A B} (f : A -> B) (l : list A) :
  NoDup l -> (forall x y, In x l -> In y l -> f x = f y -> x = y) -> NoDup (map f l).
Proof.
  induction 1 as [|a l Hn Hd IH]; intros Hi; cbn; constructor.
  - intros Hin. apply in_map_iff in Hin. destruct Hin as (y & Hy & Hy').
    assert (y = a) by (apply Hi; cbn; auto). subst. contradiction.
  - apply IH. intros x y Hx Hy. apply Hi; cbn; auto.
Qed.

Lemma NoDup_nth_error_inj {A} (l : list A) i j x : NoDup l ->
  nth_error l i = Some x -> nth_error l j = Some x -> i = j.
Proof.
  intros Hn Hi Hj. assert (i < length l)%nat by (apply nth_error_Some; congruence).
  apply (proj1 (NoDup_nth_error l) Hn i j H). congruence.
Qed.

Lemma nth_error_mid {A} (pre : list A) x post : nth_error (pre ++ x :: post) (length pre) = Some x.
Proof. rewrite nth_error_app2, Nat.sub_diag by lia. reflexivity. Qed.

Lemma skipn_succ {A} (l : list A) k : skipn (S k) l = tl (skipn k l).
Proof.
  revert l. induction k as [|k IH]; intros [|x l]; try reflexivity.
  change (skipn (S (S k)) (x :: l)) with (skipn (S k) l). rewrite IH. reflexivity.
Qed.

Lemma pos_eqb_eq a b : pos_eqb a b = true <-> a = b.
Proof.
  revert b. induction a as [|x a IH]; intros [|y b]; cbn; split; intros H; try discriminate; try reflexivity.
  - apply andb_prop in H. destruct H as [H1 H2]. apply Z.eqb_eq in H1. apply IH in H2. congruence.
  - inversion H; subst. rewrite Z.eqb_refl. apply IH. reflexivity.
Qed.
Lemma pos_eqb_refl a : pos_eqb a a = true. Proof. apply pos_eqb_eq. reflexivity. Qed.
Lemma pos_eqb_spec a b : reflect (a = b) (pos_eqb a b).
Proof. apply iff_reflect. symmetry. apply pos_eqb_eq. Qed.

Lemma map_res_ok {A B} (f : A -> res B) l out : map_res f l = Ok out <-> Forall2 (fun x y => f x = Ok y) l out.
Proof.
  revert out. induction l as [|x l IH]; intros out; cbn [map_res].
  - split; [intros [= <-]; constructor|inversion 1; reflexivity].
  - rewrite bind_ok. split.
    + intros (y & Hy & H). apply bind_ok in H. destruct H as (ys & Hys & [= <-]). constructor; [exact Hy|apply IH; exact Hys].
    + inversion 1 as [|? y ? ys Hy Hys]; subst. exists y. split; [exact Hy|]. apply IH in Hys. rewrite Hys. reflexivity.
Qed.

Lemma map_res_err {A B} (f : A -> res B) l e : map_res f l = Err e -> exists x, In x l /\ f x = Err e.
Proof.
  induction l as [|x l IH]; cbn; [discriminate|]. destruct (f x) as [y|e'] eqn:Ex; cbn.
  - destruct (map_res f l) as [ys|e'']; cbn; [discriminate|]. intros [= ->]. destruct (IH eq_refl) as (z & Hz & Hf). eauto.
  - intros [= ->]. eauto.
Qed.

Lemma map_res_length {A B} (f : A -> res B) l out : map_res f l = Ok out -> length out = length l.
Proof. intros H. apply map_res_ok in H. symmetry. exact (Forall2_length _ _ _ H). Qed.

Lemma map_res_ok_all {A B} (f : A -> res B) l out : map_res f l = Ok out -> forall x, In x l -> exists y, f x = Ok y /\ In y out.
Proof. intros H x Hin. apply map_res_ok in H. destruct (Forall2_in_l _ _ _ _ H Hin) as (y & Hy & Hxy). eauto. Qed.

Lemma map_res_ok_map {A B C} (f : A -> res B) (g : B -> C) (h : A -> C) l out :
  (forall x y, f x = Ok y -> g y = h x) -> map_res f l = Ok out -> map g out = map h l.
Proof. intros Hf H. apply map_res_ok in H. induction H as [|x y l out Hxy _ IH]; cbn; [reflexivity|]. rewrite IH, (Hf x y Hxy). reflexivity. Qed.

Lemma map_res_ext_in {A B} (f g : A -> res B) l : (forall x, In x l -> f x = g x) -> map_res f l = map_res g l.
Proof.
  induction l as [|x l IH]; intros E; cbn; [reflexivity|].
  rewrite (E x (or_introl eq_refl)), IH; [reflexivity|]. intros y Hy. apply E. right. assumption.
Qed.

Lemma map_res_map {A B C} (g : B -> res C) (h : A -> B) l : map_res g (map h l) = map_res (fun x => g (h x)) l.
Proof. induction l as [|x l IH]; cbn; [reflexivity|]. rewrite IH. reflexivity. Qed.

Lemma map_res_pure {A B} (h : A -> B) l : map_res (fun x => Ok (h x)) l = Ok (map h l).
Proof. induction l as [|x l IH]; cbn; [reflexivity|]. rewrite IH. reflexivity. Qed.

Lemma nth_nowrap_nonneg {A} (l : list A) i : 0 <= i ->
  nth_nowrap l i = match nth_error l (Z.to_nat i) with Some x => Ok x | None => Err IndexError end.
Proof.
  intros Hi. unfold nth_nowrap, zlen. destruct (Z.ltb_spec i 0); [lia|].
  destruct (Z.leb_spec (Z.of_nat (length l)) i); [|reflexivity].
  replace (nth_error l (Z.to_nat i)) with (@None A) by (symmetry; apply nth_error_None; lia). reflexivity.
Qed.

Lemma nth_py_nonneg {A} (l : list A) i : 0 <= i ->
  nth_py l i = match nth_error l (Z.to_nat i) with Some x => Ok x | None => Err IndexError end.
Proof.
  intros Hi. rewrite <- nth_nowrap_nonneg by exact Hi. unfold nth_py.
  replace (i <? 0) with false by (symmetry; apply Z.ltb_ge; exact Hi). reflexivity.
Qed.

Lemma nth_nowrap_ok {A} (l : list A) i x : nth_nowrap l i = Ok x <-> 0 <= i /\ nth_error l (Z.to_nat i) = Some x.
Proof.
  destruct (Z.lt_ge_cases i 0) as [Hi|Hi].
  - unfold nth_nowrap. replace (i <? 0) with true by (symmetry; apply Z.ltb_lt; exact Hi). split; [discriminate|lia].
  - rewrite nth_nowrap_nonneg by exact Hi. destruct (nth_error l (Z.to_nat i)) as [y|].
    + split; [intros [= ->]; auto|intros [_ [= ->]]; reflexivity].
    + split; [discriminate|intros [_ H]; discriminate].
Qed.

Lemma nth_nowrap_skipn {A} (l : list A) n : 0 <= n ->
  nth_nowrap l n = match skipn (Z.to_nat n) l with x :: _ => Ok x | [] => Err IndexError end.
Proof.
  intros Hn. rewrite nth_nowrap_nonneg by exact Hn. generalize (Z.to_nat n) as k.
  induction l as [|x l IH]; intros [|k]; try reflexivity. apply IH.
Qed.

Lemma nth_py_of_nat {A} (l : list A) (i : nat) :
  nth_py l (Z.of_nat i) = match nth_error l i with Some x => Ok x | None => Err IndexError end.
Proof. rewrite nth_py_nonneg, Nat2Z.id by lia. reflexivity. Qed.

Lemma nth_py_mid {A} (pre : list A) x post : nth_py (pre ++ x :: post) (Z.of_nat (length pre)) = Ok x.
Proof. rewrite nth_py_of_nat, nth_error_mid. reflexivity. Qed.

Lemma nth_py_in {A} (l : list A) i x : nth_py l i = Ok x -> In x l.
Proof.
  unfold nth_py. destruct (_ || _); [discriminate|]. destruct (nth_error l _) eqn:E; intros [= <-]. exact (nth_error_In _ _ E).
Qed.

(* Base.argmax_first, Base.argmax_last and Converter.argmin_first are one scan, arg_best, run with three tests *)
Section ArgBest.
  (* the scan keeps an incumbent with its index and replaces it by every later element that beats it;
     Rt / Rf say in Prop what the test's two outcomes mean *)
  Variable beats : Z -> Z -> bool.
  Variables Rt Rf : Z -> Z -> Prop.
  Hypothesis beats_spec : forall y b, BoolSpec (Rt y b) (Rf y b) (beats y b).
  Hypothesis Rt_trans : forall a b c, Rt a b -> Rt b c -> Rt a c.
  Hypothesis Rt_over : forall a b y, Rt a b -> Rf y b -> Rt a y.

  Fixpoint arg_best_aux (best : Z) (besti i : nat) (l : list Z) : nat :=
    match l with
    | [] => besti
    | y :: tl => if beats y best then arg_best_aux y i (S i) tl else arg_best_aux best besti (S i) tl
    end.
  Definition arg_best (l : list Z) : res nat :=
    match l with [] => Err ValueError | x :: tl => Ok (arg_best_aux x 0%nat 1%nat tl) end.

  Lemma arg_best_aux_split l : forall best besti i,
    (arg_best_aux best besti i l = besti /\ Forall (fun y => Rf y best) l) \/
    exists pre m post, l = pre ++ m :: post /\ arg_best_aux best besti i l = (i + length pre)%nat /\
      Rt m best /\ Forall (fun y => Rt m y) pre /\ Forall (fun y => Rf y m) post.
  Proof.
    induction l as [|y l IH]; intros best besti i; cbn [arg_best_aux]; [left; split; [reflexivity|constructor]|].
    destruct (beats_spec y best) as [Hy|Hy].
    - right. destruct (IH y i (S i)) as [[-> F]|(pre & m & post & -> & -> & Hm & Fpre & Fpost)].
      + exists [], y, l. cbn. repeat split; [lia|assumption|constructor|assumption].
      + exists (y :: pre), m, post. cbn. repeat split; [lia|eauto|constructor; assumption|assumption].
    - destruct (IH best besti (S i)) as [[-> F]|(pre & m & post & -> & -> & Hm & Fpre & Fpost)].
      + left. split; [reflexivity|]. constructor; assumption.
      + right. exists (y :: pre), m, post. cbn. repeat split; [lia|assumption|constructor; eauto|assumption].
  Qed.

  Lemma arg_best_split l r : arg_best l = Ok r ->
    exists pre m post, l = pre ++ m :: post /\ r = length pre /\ Forall (fun y => Rt m y) pre /\ Forall (fun y => Rf y m) post.
  Proof.
    destruct l as [|x l]; [discriminate|]. intros [= <-].
    destruct (arg_best_aux_split l x 0%nat 1%nat) as [[-> F]|(pre & m & post & -> & -> & Hm & Fpre & Fpost)].
    - exists [], x, l. repeat split; [constructor|assumption].
    - exists (x :: pre), m, post. repeat split; [constructor; assumption|assumption].
  Qed.
End ArgBest.

(* Base's scans are separate Fixpoints with the test written out; each is arg_best_aux after beta, so these hold by conversion *)
Lemma argmax_first_best l : argmax_first l = arg_best (fun y b => b <? y) l.
Proof. reflexivity. Qed.
Lemma argmax_last_best l : argmax_last l = arg_best (fun y b => b <=? y) l.
Proof. reflexivity. Qed.

Lemma argmax_first_split l r : argmax_first l = Ok r ->
  exists pre m post, l = pre ++ m :: post /\ r = length pre /\ Forall (fun y => y < m) pre /\ Forall (fun y => y <= m) post.
Proof.
  rewrite argmax_first_best. apply (arg_best_split _ (fun y b => b < y) (fun y b => y <= b)); intros; [apply Z.ltb_spec|lia|lia].
Qed.

Lemma argmax_last_split l r : argmax_last l = Ok r ->
  exists pre m post, l = pre ++ m :: post /\ r = length pre /\ Forall (fun y => y <= m) pre /\ Forall (fun y => y < m) post.
Proof.
  rewrite argmax_last_best. apply (arg_best_split _ (fun y b => b <= y) (fun y b => y < b)); intros; [apply Z.leb_spec|lia|lia].
Qed.

Lemma argmax_last_lt l r : argmax_last l = Ok r -> (r < length l)%nat.
Proof. intros H. destruct (argmax_last_split _ _ H) as (pre & m & post & -> & -> & _). rewrite app_length. cbn. lia. Qed.

Lemma zmax_list_spec l : forall x, In (zmax_list x l) (x :: l) /\ Forall (fun y => y <= zmax_list x l) (x :: l).
Proof.
  induction l as [|y l IH]; intros x; cbn [zmax_list]; [split; [left; reflexivity|constructor; [lia|constructor]]|].
  destruct (IH (Z.max x y)) as [Hin F]. inversion F as [|? ? Hm F']; subst. split.
  - destruct Hin as [E|Hin]; [|right; right; exact Hin]. rewrite <- E. destruct (Z.max_spec x y) as [[_ ->]|[_ ->]]; cbn; auto.
  - constructor; [lia|]. constructor; [lia|exact F'].
Qed.

Lemma zmax_list_ge x l : x <= zmax_list x l.
Proof. exact (Forall_inv (proj2 (zmax_list_spec l x))). Qed.

Lemma combine_app {A B} (l1 l1' : list A) (l2 l2' : list B) : length l1 = length l2 ->
  combine (l1 ++ l1') (l2 ++ l2') = combine l1 l2 ++ combine l1' l2'.
Proof. revert l2; induction l1 as [|x l1 IH]; intros [|y l2] H; cbn in *; try discriminate; [reflexivity|]. f_equal. apply IH. lia. Qed.

Lemma nth_error_combine {A B} (l1 : list A) (l2 : list B) i :
  nth_error (combine l1 l2) i = match nth_error l1 i, nth_error l2 i with Some a, Some b => Some (a, b) | _, _ => None end.
Proof.
  revert l2 i. induction l1 as [|a l1 IH]; intros [|b l2] [|i]; cbn; try reflexivity.
  - destruct (nth_error l1 i); reflexivity.
  - apply IH.
Qed.

Lemma Forall_skipn {A} (P : A -> Prop) m : forall l, Forall P l -> Forall P (skipn m l).
Proof. induction m as [|m IH]; intros l H; [exact H|]. destruct l as [|x l]; [constructor|]. apply IH. inversion H; assumption. Qed.

Lemma skipn_incl {A} m : forall (l : list A) x, In x (skipn m l) -> In x l.
Proof. induction m as [|m IH]; intros [|y l] x H; cbn in *; auto. Qed.

Lemma skipn_combine {A B} m : forall (l1 : list A) (l2 : list B), combine (skipn m l1) (skipn m l2) = skipn m (combine l1 l2).
Proof. induction m as [|m IH]; intros [|a l1] [|b l2]; cbn; try reflexivity; [destruct (skipn m l1); reflexivity|apply IH]. Qed.

Lemma seq_nth_map {A} (xs : list A) d : map (fun i => nth i xs d) (seq 0 (length xs)) = xs.
Proof. induction xs as [|x xs IH]; cbn; [reflexivity|]. f_equal. rewrite <- seq_shift, map_map. exact IH. Qed.

(* last_n k l is Python's l[-k:] for 0 < k (at k = 0 Python gives the whole list, last_n the empty one); it is a skipn *)
Lemma last_n_length {A} k (l : list A) : length (last_n k l) = Nat.min k (length l).
Proof. unfold last_n. rewrite skipn_length. lia. Qed.

Lemma last_n_nonempty {A} n (l : list A) : (0 < n)%nat -> l <> [] -> last_n n l <> [].
Proof.
  intros Hn Hl E. apply (f_equal (@length A)) in E. rewrite last_n_length in E. destruct l; [contradiction|]. cbn in E. lia.
Qed.

Lemma last_n_incl {A} n (l : list A) x : In x (last_n n l) -> In x l.
Proof. apply skipn_incl. Qed.

Lemma Forall_last_n {A} (P : A -> Prop) k l : Forall P l -> Forall P (last_n k l).
Proof. apply Forall_skipn. Qed.

Lemma last_n_combine {A B} k (l1 : list A) (l2 : list B) : length l1 = length l2 ->
  combine (last_n k l1) (last_n k l2) = last_n k (combine l1 l2).
Proof. intros H. unfold last_n. rewrite combine_length, <- H, Nat.min_id. apply skipn_combine. Qed.

Lemma firstn_snoc_le {A} j (l : list A) x : (j <= length l)%nat -> firstn j (l ++ [x]) = firstn j l.
Proof. intros H. rewrite firstn_app. replace (j - length l)%nat with 0%nat by lia. apply app_nil_r. Qed.

Lemma nth_error_app_plus {A} (a b : list A) j : nth_error (a ++ b) (length a + j) = nth_error b j.
Proof. rewrite nth_error_app2 by lia. f_equal. lia. Qed.

Lemma nth_error_seq0 n k : (k < n)%nat -> nth_error (seq 0 n) k = Some k.
Proof. intros H. rewrite (nth_error_nth' _ 0%nat) by (rewrite seq_length; exact H). rewrite seq_nth by exact H. reflexivity. Qed.

Lemma skipn_nth_error {A} (l : list A) : forall k x, nth_error l k = Some x -> skipn k l = x :: skipn (S k) l.
Proof. induction l as [|y l IH]; intros [|k] x E; try discriminate; cbn in *; [congruence|]. apply IH, E. Qed.

Lemma firstn_snoc_nth {A} (l : list A) : forall k x, nth_error l k = Some x -> firstn (S k) l = firstn k l ++ [x].
Proof. induction l as [|y l IH]; intros [|k] x E; try discriminate; cbn in *; [congruence|]. f_equal. apply IH, E. Qed.

Lemma nth_nowrap_in {A} (l : list A) i x : nth_nowrap l i = Ok x -> In x l.
Proof. intros H. apply nth_nowrap_ok in H. exact (nth_error_In _ _ (proj2 H)). Qed.

Lemma nth_nowrap_forall2 {A B} (R : A -> B -> Prop) la lb (i : nat) y : Forall2 R la lb ->
  nth_nowrap lb (Z.of_nat i) = Ok y -> exists x, nth_error la i = Some x /\ R x y.
Proof.
  intros HF H. apply nth_nowrap_ok in H. destruct H as [_ E]. rewrite Nat2Z.id in E.
  revert i E. induction HF as [|a b la lb Hab _ IH]; intros [|i] E; cbn in E; try discriminate.
  - inversion E; subst. exists a. split; [reflexivity|exact Hab].
  - apply IH. exact E.
Qed.

Lemma map_res_nth_forall {A} (P : A -> Prop) (l : list A) idx out : Forall P l -> map_res (nth_nowrap l) idx = Ok out -> Forall P out.
Proof.
  intros HL H. apply map_res_ok, Forall2_flip in H. apply Forall_forall. intros y Hy.
  destruct (Forall2_in_l _ _ _ _ H Hy) as (i & _ & E). exact (proj1 (Forall_forall _ _) HL y (nth_nowrap_in _ _ _ E)).
Qed.
