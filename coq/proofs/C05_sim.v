(* C05_sim.v — the result of search() does not depend on the verbosity: the run with the tqdm progress bar
   (ProgressBarLVL1) and the silent run (ProgressBarLVL0) go through the same states, except for the
   progress bar's own "best since iteration" counter.  An instance of the lock-step simulation of SimFacts. *)
Require Import Base BaseFacts Converter Driver DriverFacts SimFacts.
From RecordUpdate Require Import RecordSet.
Import RecordSetNotations.

Section VSim.
  Context {OP : optimizer}.
  Variable sp : space.
  Variable f : nat -> values -> result.
  Variable clk : nat -> Z.

  Definition call_silent (c : call) : call := mkCall (c_n_iter c) (c_stop c) (c_memory c) (c_warm c) false.
  Definition pb_core (b : pbar) (z : Z) : pbar := mkPbar (pb_best b) (pb_pos b) z.

  (* t is s with the silent progress bar and an arbitrary "since" counter *)
  Definition vir (s t : drv OP) : Prop :=
    exists z, t = s <| d_call := call_silent (d_call s) |> <| d_pbar := pb_core (d_pbar s) z |>.

  Lemma pbar_update_core (lvl1 : bool) b z sc p k : exists z',
    pbar_update_lvl0 (pb_core b z) sc p k = pb_core (if lvl1 then pbar_update_lvl1 b sc p k else pbar_update_lvl0 b sc p k) z'.
  Proof.
    destruct (pbar_update_spec false (pb_core b z) sc p k) as [z0 E0], (pbar_update_spec lvl1 b sc p k) as [z1 E1].
    exists z0. rewrite E0, E1. cbn. destruct (better _ _ _); reflexivity.
  Qed.

  Lemma vir_simulation : simulation sp f vir.
  Proof.
    constructor.
    - intros s t [z ->]. cbn. repeat split; reflexivity.
    - intros g s t Hg [z ->]. exists z. destruct Hg; reflexivity.
    - intros s t p v _ [z ->]. unfold lookup. cbn [d_call d_mem c_memory call_silent set].
      destruct (c_memory (d_call s)); [|split; [reflexivity|exists z; reflexivity]].
      apply res_rel_bind_eq; [reflexivity|]. intros key _.
      destruct (dict_get pos_eqb key (d_mem s)); (split; [reflexivity|exists z; reflexivity]).
    - intros s t sc p k [z ->].
      destruct (pbar_update_core (c_lvl1 (d_call s)) (d_pbar s) z sc p k) as [z' E]. exists z'.
      unfold pbar_update. cbn. rewrite E. reflexivity.
    - intros s t [z ->]. unfold finish_search. apply (res_rel_bind_eq vir); [reflexivity|]. intros bv _. exists z. reflexivity.
  Qed.

  Theorem search_vir (s : drv OP) (c : call) : res_rel vir (search sp f clk s c) (search sp f clk s (call_silent c)).
  Proof.
    apply (search_sim sp f clk vir vir_simulation); [reflexivity|].
    unfold init_search, tick. apply (res_rel_bind_eq vir); [reflexivity|]. intros m _. exists 0. reflexivity.
  Qed.

  Record same_result (a b : drv OP) : Prop := {
    vr_rows : d_rows a = d_rows b;
    vr_pos : d_pos_l a = d_pos_l b;
    vr_score : d_score_l a = d_score_l b;
    vr_best : d_best_score a = d_best_score b /\ d_best_value a = d_best_value b;
    vr_counters : d_n_init_total a = d_n_init_total b /\ d_n_iter_total a = d_n_iter_total b;
    vr_memory : d_memory_dict a = d_memory_dict b /\ d_fcalls a = d_fcalls b;
    vr_opt : d_opt a = d_opt b
  }.

  Lemma vir_same_result s t : vir s t -> same_result s t.
  Proof. intros [z ->]. constructor; cbn; auto. Qed.

  (* whatever the verbosity, search() produces the same search_data, best result, memory and optimizer state *)
  Theorem verbosity_independent (s s1 : drv OP) (c : call) :
    search sp f clk s c = Ok s1 ->
    exists s2, search sp f clk s (call_silent c) = Ok s2 /\ same_result s1 s2.
  Proof.
    intros E. pose proof (search_vir s c) as HS. rewrite E in HS.
    destruct (res_rel_ok _ _ _ HS) as (s2 & E2 & M). exists s2. split; [exact E2|exact (vir_same_result _ _ M)].
  Qed.
End VSim.
