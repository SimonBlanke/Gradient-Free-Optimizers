(* SharedFacts.v — soundness of the shared memory dictionary under EVERY interleaving. *)
From Coq Require Import List Bool.
Import ListNotations.
Require Import Shared.

Section SharedFacts.
  Variable key : Type.
  Variable key_eqb : key -> key -> bool.
  Hypothesis key_eqb_spec : forall a b, reflect (a = b) (key_eqb a b).
  Variable val : Type.
  Variable f : key -> val.

  Notation lookup := (lookup key key_eqb val).
  Notation step := (step key key_eqb val f).
  Notation exec := (exec key key_eqb val f).
  Notation proc := (proc key val).
  Notation map_t := (map_t key val).

  Definition consistent (m : map_t) := forall k v, lookup m k = Some v -> v = f k.

  (* per-process invariant: everything it reported is objective(key) and is stored in the map;
     a process about to `get` a key finds it (nobody deletes) *)
  Definition proc_ok (m : map_t) (p : proc) :=
    Forall (fun kv => snd kv = f (fst kv) /\ lookup m (fst kv) <> None) (outs _ _ p) /\
    (at_ _ _ p = AtGet -> exists k rest v, todo _ _ p = k :: rest /\ lookup m k = Some v).

  (* every key of the map was there initially or was evaluated (and reported) by some process *)
  Definition dom_ok (m0 m : map_t) (ps : list proc) :=
    forall k, lookup m k <> None -> lookup m0 k <> None \/ exists p, In p ps /\ In k (map fst (outs _ _ p)).

  Lemma consistent_cons m k : consistent m -> consistent ((k, f k) :: m).
  Proof. intros H k' v. simpl. destruct (key_eqb_spec k' k); [intros [= <-]; subst; reflexivity | apply H]. Qed.

  Lemma upd_Forall (P : proc -> Prop) ps i p : Forall P ps -> P p -> Forall P (upd _ _ ps i p).
  Proof. revert i; induction ps as [|q tl IH]; intros [|j] Hf Hp; simpl; auto; inversion Hf; subst; constructor; auto. Qed.

  Lemma lookup_grow m k k0 : lookup m k0 <> None -> lookup ((k, f k) :: m) k0 <> None.
  Proof. simpl. destruct (key_eqb k0 k); congruence. Qed.

  Lemma proc_ok_grow m k p : proc_ok m p -> proc_ok ((k, f k) :: m) p.
  Proof.
    intros [Ho Hg]. split.
    - eapply Forall_impl; [|exact Ho]. intros [k0 v0] [A B]. split; [assumption|]. apply lookup_grow. assumption.
    - intros Ha. destruct (Hg Ha) as (k0 & rest & v & Ht & Hl).
      simpl. destruct (key_eqb k0 k) eqn:E.
      + exists k0, rest, (f k). rewrite E. auto.
      + exists k0, rest, v. rewrite E. auto.
  Qed.

  Lemma in_upd (ps : list proc) i (p q : proc) : In q ps -> In q (upd _ _ ps i p) \/ nth_error ps i = Some q.
  Proof.
    revert i. induction ps as [|x tl IH]; intros i Hin; [contradiction|].
    destruct i as [|j]; simpl.
    - destruct Hin as [->|Hin]; [right; reflexivity|left; right; assumption].
    - destruct Hin as [->|Hin]; [left; left; reflexivity|].
      destruct (IH j Hin) as [H|H]; [left; right; assumption|right; assumption].
  Qed.

  Lemma upd_in_new (ps : list proc) i (p q : proc) : nth_error ps i = Some q -> In p (upd _ _ ps i p).
  Proof.
    revert i. induction ps as [|x tl IH]; intros [|j] H; simpl in *; try discriminate.
    - left. reflexivity.
    - right. eapply IH. eassumption.
  Qed.

  Lemma dom_ok_upd m0 m m' ps i p p' : nth_error ps i = Some p ->
    incl (outs _ _ p) (outs _ _ p') ->
    (forall k, lookup m' k <> None -> lookup m k <> None \/ In k (map fst (outs _ _ p'))) ->
    dom_ok m0 m ps -> dom_ok m0 m' (upd _ _ ps i p').
  Proof.
    intros En Ho Hm Hd k Hk.
    assert (Hp' : In p' (upd _ _ ps i p')) by (eapply upd_in_new; eassumption).
    destruct (Hm k Hk) as [Hk0|Hk0]; [|right; exists p'; auto].
    destruct (Hd k Hk0) as [H|(q & Hq & Hin)]; [left; assumption|right].
    destruct (in_upd ps i p' q Hq) as [H|H]; [exists q; auto|].
    assert (q = p) by congruence. subst q. exists p'. split; [assumption|].
    apply in_map_iff in Hin. destruct Hin as (kv & <- & Hin). apply in_map. apply Ho. assumption.
  Qed.

  (* the invariant of the whole system.  What the property asks is read off it: every (k, v) in a process's outs has v = f k and
     k stored in the map (proc_ok); every key of the map was initial or is in somebody's outs (dom_ok).  That no `get` raises
     KeyError is exec returning Some: the step of an unfinished process is None exactly at a `get` that misses *)
  Definition sys_ok (m0 m : map_t) (ps : list proc) :=
    consistent m /\ Forall (proc_ok m) ps /\ dom_ok m0 m ps.

  Lemma step_sys_ok m0 ps m i p : sys_ok m0 m ps -> nth_error ps i = Some p -> todo _ _ p <> [] ->
    match step p m with Some (p', m') => sys_ok m0 m' (upd _ _ ps i p') | None => False end.
  Proof.
    intros (Hc & Hp & Hd) En Ht. unfold Shared.step.
    destruct (todo _ _ p) as [|k rest] eqn:Et; [contradiction|].
    assert (Hpi : proc_ok m p) by (rewrite Forall_forall in Hp; apply Hp; eapply nth_error_In; eauto).
    pose proof Hpi as [Ho Hg].
    destruct (at_ _ _ p) eqn:Ea.
    - (* contains *)
      destruct (lookup m k) as [v|] eqn:El; (split; [assumption|split]).
      + apply upd_Forall; [assumption|]. split; simpl; [assumption|]. intros _. exists k, rest, v. auto.
      + apply (dom_ok_upd m0 m m ps i p _ En); [apply incl_refl | auto | assumption].
      + apply upd_Forall; [assumption|]. split; simpl; [assumption|discriminate].
      + apply (dom_ok_upd m0 m m ps i p _ En); [apply incl_refl | auto | assumption].
    - (* get: never a KeyError *)
      destruct (Hg eq_refl) as (k0 & rest0 & v & E & Hl). rewrite Et in E. injection E as <- <-. rewrite Hl.
      split; [assumption|split].
      + apply upd_Forall; [assumption|]. split; simpl; [|discriminate].
        constructor; [simpl; split; [apply Hc; assumption|congruence] | assumption].
      + apply (dom_ok_upd m0 m m ps i p _ En); [apply incl_tl, incl_refl | auto | assumption].
    - (* set: the objective was evaluated *)
      split; [apply consistent_cons; assumption|split].
      + apply upd_Forall; [eapply Forall_impl; [|exact Hp]; intros q; apply proc_ok_grow|].
        split; simpl; [|discriminate]. constructor.
        * simpl. split; [reflexivity|]. destruct (key_eqb_spec k k); [discriminate|congruence].
        * exact (proj1 (proc_ok_grow m k p Hpi)).
      + apply (dom_ok_upd m0 m _ ps i p _ En); [apply incl_tl, incl_refl | | assumption].
        intros k0. simpl. destruct (key_eqb_spec k0 k); auto.
  Qed.

  Theorem shared_mem_sound : forall sched m0 ps m,
    sys_ok m0 m ps ->
    exists ps' m', exec ps m sched = Some (ps', m') /\ sys_ok m0 m' ps'.
  Proof.
    induction sched as [|i tl IH]; intros m0 ps m H; cbn [Shared.exec].
    - exists ps, m. split; [reflexivity|assumption].
    - destruct (nth_error ps i) as [p|] eqn:En; [|apply IH; assumption].
      pose proof (step_sys_ok m0 ps m i p H En) as H'.
      destruct (todo _ _ p); [apply IH; assumption|].
      destruct (step p m) as [[p' m']|]; [apply IH|exfalso]; apply H'; discriminate.
  Qed.
End SharedFacts.
