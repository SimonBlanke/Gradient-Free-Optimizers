(* C11 — memory_warm_start rows are trusted verbatim: what dictionary a frame becomes
   (C20_proofs.frame_dict_exact), and which row of several for one position it keeps. *)
Require Import Base Converter ListFacts DictFacts Legacy.

(* python dict(zip(keys, values)): the LAST pair for a key wins *)
Fixpoint last_assoc {V} (k : pos) (l : list (pos * V)) : option V :=
  match l with
  | [] => None
  | (k', v) :: tl => match last_assoc k tl with
                     | Some x => Some x
                     | None => if pos_eqb k k' then Some v else None end
  end.

Lemma last_assoc_rev {V} k (l : list (pos * V)) : last_assoc k l = dict_get pos_eqb k (rev l).
Proof. induction l as [|[k' v] l IH]; cbn; [reflexivity|]. rewrite dict_get_app, IH. reflexivity. Qed.

Theorem dict_of_pairs_last {V} (l : list (pos * V)) k : dict_get pos_eqb k (dict_of_pairs pos_eqb l) = last_assoc k l.
Proof. rewrite (dict_of_pairs_get pos_eqb_spec), last_assoc_rev. reflexivity. Qed.

(* record of defect D3 for C11 (fixed): a descending dimension's member 3 was keyed 3 (out of range) *)
Example descending_warm_start_key_unfixed :
  values2positions_unfixed_1d [3; 2; 1] [3] = [3] /\ values2positions [[3; 2; 1]] [[3]] = Ok [[0]].
Proof. split; reflexivity. Qed.
