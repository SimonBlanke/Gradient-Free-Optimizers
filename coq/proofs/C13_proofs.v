(* C13 — early_stopping follows its documented no-improvement rule exactly. *)
Require Import Base StopRun Converter Driver DriverFacts ListFacts.

Definition zmax_of (l : list Z) : Z := match l with [] => 0 | x :: tl => zmax_list x tl end.

(* the rule as the property words it: earlier = best of the first k-n scores, last = best of the last n scores *)
Definition nc_spec (scores : list Z) (cfg : early_cfg) : bool :=
  match es_n cfg with
  | None => false
  | Some n =>
    let len := zlen scores in
    if len <=? n then false else
    let cut := Z.to_nat (len - n) in
    let earlier := zmax_of (firstn cut scores) in
    let last := zmax_of (skipn cut scores) in
    (last <=? earlier)
    || match es_tol_abs cfg with Some a => last - earlier <? a | None => false end
    || match es_tol_rel cfg with
       | Some (rn, rd) => negb (earlier =? 0) && ((last - earlier) * 100 * rd <? rn * Z.abs earlier)
       | None => false end
  end.

Lemma zmax_list_app x a b : zmax_list x (a ++ b) = zmax_list (zmax_list x a) b.
Proof. revert x. induction a as [|y a IH]; intros x; cbn; [reflexivity|]. apply IH. Qed.

Lemma zmax_list_max x y l : zmax_list (Z.max x y) l = Z.max x (zmax_list y l).
Proof.
  revert x y. induction l as [|z l IH]; intros x y; cbn; [reflexivity|].
  rewrite <- IH. f_equal. lia.
Qed.

Lemma zmax_of_spec l : l <> [] -> In (zmax_of l) l /\ Forall (fun y => y <= zmax_of l) l.
Proof. destruct l as [|x l]; [contradiction|]. intros _. apply zmax_list_spec. Qed.

Lemma argmax_first_app a b r : a <> [] -> b <> [] -> argmax_first (a ++ b) = Ok r ->
  ((r < length a)%nat <-> zmax_of b <= zmax_of a).
Proof.
  intros Ha Hb H. destruct (argmax_first_split _ _ H) as (pre & m & post & E & -> & Fpre & Fpost).
  destruct (zmax_of_spec a Ha) as [Ia Fa], (zmax_of_spec b Hb) as [Ib Fb]. rewrite Forall_forall in *.
  apply app_eq_app in E. destruct E as (l & [[-> E]|[-> ->]]); [destruct l as [|m' l]; cbn in E|].
  - (* the maximum heads b, all of a is below it *)
    subst b. rewrite app_nil_r in *. specialize (Fpre _ Ia). specialize (Fb m (or_introl eq_refl)). lia.
  - (* the maximum lies in a, b after it *)
    injection E as <- ->. rewrite app_length. cbn. specialize (Fa m (in_elt m pre l)).
    specialize (Fpost _ (in_or_app _ _ _ (or_intror Ib))). lia.
  - (* the maximum lies in b, all of a strictly before it *)
    rewrite app_length. specialize (Fpre _ (in_or_app _ _ _ (or_introl Ia))). specialize (Fb m (in_elt m l post)). lia.
Qed.

Lemma zmax_of_app a b : a <> [] -> b <> [] -> zmax_of (a ++ b) = Z.max (zmax_of a) (zmax_of b).
Proof.
  intros Ha Hb. destruct a as [|x a]; [contradiction|]. destruct b as [|y b]; [contradiction|].
  cbn [zmax_of app]. rewrite zmax_list_app. cbn [zmax_list]. rewrite zmax_list_max. reflexivity.
Qed.

Lemma max_py_zmax_of l : l <> [] -> max_py l = Ok (zmax_of l).
Proof. destruct l; [contradiction|reflexivity]. Qed.

(* the code's argmax-position test IS the comparison of the two window maxima *)
Theorem no_change_eq_spec zs cfg n :
  es_n cfg = Some n -> 1 <= n -> no_change zs cfg = Ok (nc_spec zs cfg).
Proof.
  intros Hn Hn1. unfold no_change, no_change_gen, nc_spec. rewrite Hn.
  destruct (Z.leb_spec (zlen zs) n) as [Hle|Hgt]; [reflexivity|].
  set (cut := Z.to_nat (zlen zs - n)).
  assert (Hcut : (0 < cut < length zs)%nat) by (unfold zlen in *; subst cut; lia).
  pose proof (firstn_skipn cut zs) as Hsplit.
  remember (firstn cut zs) as a eqn:Ea. set (b := skipn cut zs) in *.
  assert (Hla : length a = cut) by (subst a; rewrite firstn_length; lia).
  assert (Ha : a <> []) by (intros E; rewrite E in Hla; cbn in Hla; lia).
  assert (Hlb : length b = (length zs - cut)%nat) by (subst b; rewrite skipn_length; lia).
  assert (Hb : b <> []) by (intros E; rewrite E in Hlb; cbn in Hlb; lia).
  assert (Hzs : zs <> []) by (intros E; rewrite E in Hcut; cbn in Hcut; lia).
  rewrite (max_py_zmax_of zs Hzs). cbn [bind].
  destruct (argmax_first zs) as [r|e] eqn:Er; [|destruct zs; [contradiction|discriminate]]. cbn [bind].
  pose proof (argmax_first_app a b r Ha Hb) as Hsp. rewrite Hsplit in Hsp. specialize (Hsp Er).
  set (earlier := zmax_of a) in *. set (last := zmax_of b) in *.
  assert (Hmax : zmax_of zs = Z.max earlier last) by (rewrite <- Hsplit; apply zmax_of_app; assumption).
  assert (Hdiff : (n <? zlen zs - Z.of_nat r) = (last <=? earlier)).
  { destruct (Z.leb_spec last earlier) as [Hl|Hl].
    - apply Z.ltb_lt. apply Hsp in Hl. unfold zlen in *. subst cut. lia.
    - apply Z.ltb_ge. assert (~ (r < length a)%nat) by (intros C; apply Hsp in C; lia).
      unfold zlen in *. subst cut. lia. }
  rewrite Hdiff. destruct (Z.leb_spec last earlier) as [Hl|Hl]; [reflexivity|]. cbn [orb].
  unfold take. fold cut. rewrite <- Ea.
  rewrite (max_py_zmax_of a Ha). cbn [bind]. fold earlier.
  rewrite Hmax. replace (Z.max earlier last) with last by lia.
  replace (Z.abs (earlier - last)) with (last - earlier) by lia.
  destruct (es_tol_abs cfg) as [ta|].
  - destruct (last - earlier <? ta); [reflexivity|]. cbn [orb].
    destruct (es_tol_rel cfg) as [[rn rd]|]; [|reflexivity].
    destruct (earlier =? 0); reflexivity.
  - cbn [orb]. destruct (es_tol_rel cfg) as [[rn rd]|]; [|reflexivity].
    destruct (earlier =? 0); reflexivity.
Qed.

Theorem no_change_never_raises zs cfg : zs <> [] -> exists b, no_change zs cfg = Ok b.
Proof.
  intros Hz. unfold no_change, no_change_gen.
  destruct (es_n cfg) as [n|]; [|eauto].
  destruct (zlen zs <=? n) eqn:L; [eauto|].
  rewrite (max_py_zmax_of zs Hz). destruct zs as [|x tl]; [contradiction|]. cbn [argmax_first bind].
  destruct (n <? _); [eauto|].
  assert (Hne : take (Z.to_nat (zlen (x :: tl) - n)) (x :: tl) <> []).
  { apply Z.leb_gt in L. unfold take, zlen in *. cbn [length] in *.
    destruct (Z.to_nat (Z.of_nat (S (length tl)) - n)) eqn:E; [exfalso; lia|discriminate]. }
  rewrite (max_py_zmax_of _ Hne). cbn [bind].
  destruct (match es_tol_abs cfg with Some a => _ | None => false end); [eauto|].
  destruct (es_tol_rel cfg) as [[rn rd]|]; [|eauto].
  destruct (_ =? 0); eauto.
Qed.

(* record of defect D2 (fixed in /repo): with python floats the unguarded tol_rel division raised *)
Example zero_baseline_raised_unfixed :
  no_change_unfixed_pyfloat [0; 1] (mkEarly (Some 1) None (Some (5, 1))) = Err ZeroDivisionError
  /\ no_change [0; 1] (mkEarly (Some 1) None (Some (5, 1))) = Ok false.
Proof. split; reflexivity. Qed.

(* the search loop stops exactly at the first step satisfying the rule *)
Section C13.
  Context {OP : optimizer}.
  Variable sp : space.
  Variable f : nat -> values -> result.
  Variable clk : nat -> Z.

  (* the rule evaluated on a score history (finite scores; None when a score is not finite) *)
  Definition rule (cfg : early_cfg) (hist : list score) : option bool :=
    match finite_scores hist with Some zs => Some (nc_spec zs cfg) | None => None end.

  Definition C13_statement : Prop :=
    forall (s s' : drv OP) (c : call) (cfg : early_cfg) (n : Z),
      c_stop c = mkStop None None (Some cfg) -> es_n cfg = Some n -> 1 <= n -> 0 <= c_n_iter c ->
      search sp f clk s c = Ok s' ->
      exists sc : list score,
        d_score_l s' = d_score_l s ++ sc /\
        length (d_rows s') = (length (d_rows s) + length sc)%nat /\
        zlen sc <= c_n_iter c /\
        (* never earlier: after every step but the last the rule was false *)
        (forall j, (0 < j < length sc)%nat -> rule cfg (d_score_l s ++ firstn j sc) = Some false) /\
        (* never later: either all n_iter steps ran or the rule holds after the last step *)
        (zlen sc = c_n_iter c \/ rule cfg (d_score_l s ++ sc) = Some true).

  Lemma stop_after_early (s : drv OP) c m cfg n tr b :
    c_stop c = mkStop None None (Some cfg) -> es_n cfg = Some n -> 1 <= n ->
    stop_after clk (call_start clk s c m) tr = Ok b -> rule cfg (d_score_l s ++ map ev_score tr) = Some b.
  Proof.
    intros Hc Hn Hn1. rewrite stop_after_start, Hc. unfold check, rule, no_change_scores. cbn.
    destruct (finite_scores _) as [zs|]; [|discriminate].
    rewrite (no_change_eq_spec zs cfg n Hn Hn1). intros [= <-]. reflexivity.
  Qed.

  Theorem C13_holds : C13_statement.
  Proof.
    intros s s' c cfg n Hm Hn Hn1 Hni Hs.
    destruct (search_trace s c s' Hni Hs) as (m & tr & sE & Tr).
    exists (map ev_score tr). split; [exact (ct_score Tr)|split; [|split; [|split]]].
    - rewrite (ct_rows Tr), app_length, !map_length. reflexivity.
    - unfold zlen. rewrite map_length. exact (ct_len Tr).
    - intros j Hj. rewrite map_length in Hj. rewrite firstn_map.
      exact (stop_after_early s c m cfg n _ _ Hm Hn Hn1 (ct_early Tr j Hj)).
    - destruct (ct_last Tr) as [Hl|[_ Hl]]; [left; unfold zlen; rewrite map_length; exact Hl|right].
      exact (stop_after_early s c m cfg n _ _ Hm Hn Hn1 Hl).
  Qed.
End C13.
