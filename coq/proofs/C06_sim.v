(* C06_sim.v — memory is TRANSPARENT: for a deterministic objective and no warm start, a search() with
   memory=True goes through exactly the same states as the same search() with memory=False, except for the
   memory bookkeeping itself (memory dict, objective call log).  An instance of the lock-step simulation of SimFacts. *)
Require Import Base BaseFacts Converter Driver SimFacts ConverterFacts ListFacts DictFacts.
From RecordUpdate Require Import RecordSet.
Import RecordSetNotations.

Section MemSim.
  Context {OP : optimizer}.
  Variable sp : space.
  Variable f0 : values -> result.
  Variable clk : nat -> Z.
  Notation f := (fun (_ : nat) (v : values) => f0 v).

  (* every stored result is the objective's value at the (member) vector of its key *)
  Definition mem_sound (m : @memdict result) : Prop :=
    forall k r, dict_get pos_eqb k m = Some r ->
    forall p v, position2value sp p = Ok v -> value2position sp v = Ok k -> r = f0 v.

  Definition call_off (c : call) : call := mkCall (c_n_iter c) (c_stop c) false (c_warm c) (c_lvl1 c).

  (* t is s with the memory switched off and arbitrary memory bookkeeping *)
  Inductive mir (s : drv OP) : drv OP -> Prop :=
    mir_intro m mn fc md : c_memory (d_call s) = true -> mem_sound (d_mem s) ->
      mir s (s <| d_call := call_off (d_call s) |> <| d_mem := m |> <| d_mem_new := mn |> <| d_fcalls := fc |> <| d_memory_dict := md |>).

  Lemma mem_sound_set m key v p :
    mem_sound m -> position2value sp p = Ok v -> value2position sp v = Ok key -> mem_sound (dict_set pos_eqb key (f0 v) m).
  Proof.
    intros Hs Hp Hk k r Hg p' v' Hp' Hk'. rewrite (dict_get_set pos_eqb_spec) in Hg.
    destruct (pos_eqb_spec k key) as [->|_]; [|eapply Hs; eauto].
    assert (v' = v) by (eapply (member_key_inj sp); eauto). congruence.
  Qed.

  Lemma mir_simulation : simulation sp f mir.
  Proof.
    constructor.
    - intros s t [m mn fc md _ _]. cbn. repeat split; reflexivity.
    - intros g s t Hg [m mn fc md Hon Hs]. destruct Hg; refine (mir_intro _ m mn fc md _ _); assumption.
    - (* with the memory on, a key that is present holds f0 v by mem_sound; one that is absent is stored with f0 v *)
      intros s t p v Hp [m mn fc md Hon Hs].
      destruct (value2position_of_position2value sp p v Hp) as (key & Hk & _ & _).
      unfold lookup. cbn [d_call c_memory call_off set]. rewrite Hon, Hk. cbn [bind].
      destruct (dict_get pos_eqb key (d_mem s)) as [r|] eqn:G.
      + split; [exact (Hs key r G p v Hp Hk)|]. exact (mir_intro _ m mn (fc ++ [v]) md Hon Hs).
      + split; [reflexivity|]. refine (mir_intro _ m mn (fc ++ [v]) md _ _); [assumption|].
        exact (mem_sound_set _ key v p Hs Hp Hk).
    - intros s t sc p k [m mn fc md Hon Hs]. refine (mir_intro _ m mn fc md _ _); assumption.
    - intros s t [m mn fc md Hon Hs]. unfold finish_search. apply (res_rel_bind_eq mir); [reflexivity|]. intros bv _.
      refine (mir_intro _ m mn fc [] _ _); assumption.
  Qed.

  Theorem search_mir (s : drv OP) (c : call) :
    c_memory c = true -> c_warm c = None -> res_rel mir (search sp f clk s c) (search sp f clk s (call_off c)).
  Proof.
    intros Hon Hw. apply (search_sim sp f clk mir mir_simulation); [reflexivity|].
    unfold init_search, tick, memory_init. cbn [c_warm call_off]. rewrite Hw. cbn [bind].
    refine (mir_intro _ [] [] (d_fcalls s) (d_memory_dict s) _ _); [exact Hon|]. intros k r Hg. discriminate Hg.
  Qed.

  Record same_run (a b : drv OP) : Prop := {
    sr_rows_eq : d_rows a = d_rows b;
    sr_pos_eq : d_pos_l a = d_pos_l b;
    sr_score_eq : d_score_l a = d_score_l b;
    sr_best_eq : d_best_score a = d_best_score b /\ d_best_value a = d_best_value b;
    sr_counters_eq : d_n_init_total a = d_n_init_total b /\ d_n_iter_total a = d_n_iter_total b;
    sr_times_eq : d_eval_times a = d_eval_times b /\ d_iter_times a = d_iter_times b;
    sr_opt_eq : d_opt a = d_opt b
  }.

  Lemma mir_same_run s t : mir s t -> same_run s t.
  Proof. intros [m mn fc md _ _]. constructor; cbn; auto. Qed.

  Theorem memory_transparent (s s1 : drv OP) (c : call) :
    c_memory c = true -> c_warm c = None ->
    search sp f clk s c = Ok s1 ->
    exists s2, search sp f clk s (call_off c) = Ok s2 /\ same_run s1 s2.
  Proof.
    intros Hon Hw E. pose proof (search_mir s c Hon Hw) as HS. rewrite E in HS.
    destruct (res_rel_ok _ _ _ HS) as (s2 & E2 & M). exists s2. split; [exact E2|exact (mir_same_run _ _ M)].
  Qed.
End MemSim.
