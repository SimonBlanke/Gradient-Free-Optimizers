(* PyLoopFacts.v — PyPrimsQ.py_for and py_while_ret: what the ties of the translated loops share. *)
Require Import Base PyPrimsQ.

Lemma py_for_ext {S A} (b1 b2 : S -> A -> res S) : (forall s x, b1 s x = b2 s x) -> forall l s, py_for b1 l s = py_for b2 l s.
Proof. intros H. induction l as [|x l IH]; intros s; cbn [py_for]; [reflexivity|]. rewrite H. destruct (b2 s x); cbn [bind]; auto. Qed.

(* a loop that appends f x per element is map_res f; inj places the list among the loop-carried variables, the others
   being left alone by the body *)
Lemma py_for_map_res {St A B} (f : A -> res B) (inj : list B -> St) (body : St -> A -> res St) :
  (forall acc x, body (inj acc) x = do y <- f x; Ok (inj (acc ++ [y]))) ->
  forall l acc, py_for body l (inj acc) = match map_res f l with Ok ys => Ok (inj (acc ++ ys)) | Err e => Err e end.
Proof.
  intros H. induction l as [|a l IH]; intros acc; cbn [py_for map_res]; [rewrite app_nil_r; reflexivity|].
  rewrite H. destruct (f a) as [y|e]; cbn [bind]; [|reflexivity]. rewrite IH.
  destruct (map_res f l) as [ys|e]; cbn [bind]; [|reflexivity]. rewrite <- app_assoc. reflexivity.
Qed.

Lemma py_while_ret_return {St R} fuel (body : St -> res (St + R)) s r :
  body s = Ok (inr r) -> py_while_ret (S fuel) body s = Ok r.
Proof. intros H. cbn [py_while_ret]. rewrite H. reflexivity. Qed.

Lemma py_while_ret_diverges {St R} (I : St -> Prop) (body : St -> res (St + R)) :
  (forall s, I s -> exists s', body s = Ok (inl s') /\ I s') ->
  forall fuel s, I s -> py_while_ret fuel body s = Err OutOfFuel.
Proof.
  intros H. induction fuel as [|f IH]; intros s Hs; [reflexivity|].
  cbn [py_while_ret]. destruct (H s Hs) as (s' & -> & Hs'). apply IH. exact Hs'.
Qed.

