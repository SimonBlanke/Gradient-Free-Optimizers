(* DriverFacts.v — what one driver step does (for an arbitrary optimizer), the relations of the search loop
   (reach, ended, and stepped, into which both embed) and search() as a function of its trace: search_trace,
   through which C03-C05, C10, C12-C14 and the contract lifts of AlgoLift read a call.  The simulations
   (SimFacts, C05_sim, C06_sim) and SearchTie rest on gen_step and on the lemmas of lookup and the progress bar, not on the
   trace layer. *)
Require Import Base BaseFacts ListFacts StopRun Converter Driver.
From RecordUpdate Require Import RecordSet.
Import RecordSetNotations.

(* `Ok a = Ok b` to a = b, a pair to its components, then subst.  Not by `injection`: that tactic head-normalises both
   sides, which for a state written as a chain of record updates is costly, here and again at Qed. *)
Ltac inv_ok H := apply ok_inj in H; try (apply pair_equal_spec in H; destruct H); subst.

(* break one monadic layer of a hypothesis `bind r k = Ok _`, naming the value and the equation *)
Tactic Notation "step_bind" hyp(H) "as" simple_intropattern(x) ident(E) :=
  match type of H with bind ?r _ = Ok _ => destruct r as [x|] eqn:E; cbn [bind] in H; [|discriminate H] end.

Section Facts.
  Context {OP : optimizer}.
  Variable sp : space.
  Variable f : nat -> values -> result.
  Variable clk : nat -> Z.

  Notation drvO := (drv OP).

  (* how `lookup` relates the state before and after: r is the result handed to the row *)
  Definition lookup_rel (s : drvO) (v : values) (r : result) (s' : drvO) : Prop :=
    (c_memory (d_call s) = false /\ r = f (length (d_fcalls s)) v /\
       s' = s <| d_fcalls ::= (fun l => l ++ [v]) |>)
    \/ (c_memory (d_call s) = true /\ exists key, value2position sp v = Ok key /\
         ((dict_get pos_eqb key (d_mem s) = Some r /\ s' = s) \/
          (dict_get pos_eqb key (d_mem s) = None /\ r = f (length (d_fcalls s)) v /\
           s' = s <| d_fcalls ::= (fun l => l ++ [v]) |>
                  <| d_mem ::= dict_set pos_eqb key r |>
                  <| d_mem_new ::= dict_set pos_eqb key r |>))).

  Lemma lookup_spec s v r s' : lookup sp f s v = Ok (r, s') -> lookup_rel s v r s'.
  Proof.
    unfold lookup, lookup_rel. intros H.
    destruct (c_memory (d_call s)) eqn:M.
    - right. split; [reflexivity|]. step_bind H as key Ek. exists key. split; [reflexivity|].
      destruct (dict_get pos_eqb key (d_mem s)) eqn:G; inv_ok H; auto.
    - left. inv_ok H. auto.
  Qed.

  (* _initialization and _iteration are one procedure in the two optimizer calls and the counters bumped *)
  Definition gen_step (propose : ost OP -> res (ost OP * pos)) (digest : ost OP -> score -> res (ost OP))
             (bump : drvO -> drvO) (s : drvO) (nth_iter : Z) : res drvO :=
    let '(t0, s) := tick clk s in
    do op <- propose (d_opt s);
    let '(o1, p) := op in
    let s := s <| d_opt := o1 |> in
    do ss <- score_of sp f clk s p;
    let '(sc, s) := ss in
    do o2 <- digest (d_opt s) sc;
    let s := s <| d_opt := o2 |> <| d_pos_l ::= (fun l => l ++ [p]) |> <| d_score_l ::= (fun l => l ++ [sc]) |> in
    let s := bump (s <| d_pbar := pbar_update s sc p nth_iter |>) in
    let '(t1, s) := tick clk s in
    Ok (s <| d_iter_times ::= (fun l => l ++ [t1 - t0]) |>).

  Definition bump_init (x : drvO) : drvO := x <| d_n_init_total ::= Z.succ |> <| d_n_init_search ::= Z.succ |>.
  Definition bump_iter (x : drvO) : drvO := x <| d_n_iter_total ::= Z.succ |> <| d_n_iter_search ::= Z.succ |>.

  Lemma initialization_gen s k :
    initialization sp f clk s k = gen_step (o_init_pos OP) (o_eval_init OP) bump_init s k.
  Proof. reflexivity. Qed.
  Lemma iteration_gen s k :
    iteration sp f clk s k = gen_step (o_iterate OP) (o_evaluate OP) bump_iter s k.
  Proof. reflexivity. Qed.

  (* What one step does to the state, field by field; kind = true: _initialization, false: _iteration.
     Clock readings: a step makes four, numbered from d_clk s: the iteration timer's start (+0), the evaluation
     timer's start (+1) and end (+2), the iteration timer's end (+3); hence 4 + d_clk s afterwards and the two
     differences recorded.  The stop check after the step makes one more reading if a time limit is set (rc).
     sr_look speaks of two auxiliary states sa, sb because lookup runs on a state in which the clock and the
     optimizer have already moved: it fixes the fields lookup reads and writes; step_lookup is the form to use. *)
  Record step_rel (kind : bool) (s : drvO) (nth : Z) (s' : drvO) (p : pos) (v : values) (r : result) : Prop := {
    sr_p2v   : position2value sp p = Ok v;
    sr_look  : exists sa sb, lookup_rel sa v r sb /\
                 d_fcalls sa = d_fcalls s /\ d_mem sa = d_mem s /\ d_mem_new sa = d_mem_new s /\ d_call sa = d_call s /\
                 d_fcalls s' = d_fcalls sb /\ d_mem s' = d_mem sb /\ d_mem_new s' = d_mem_new sb;
    sr_rows  : d_rows s' = d_rows s ++ [result_row r v];
    sr_pos   : d_pos_l s' = d_pos_l s ++ [p];
    sr_score : d_score_l s' = d_score_l s ++ [r_score r];
    sr_pbar  : d_pbar s' = (if c_lvl1 (d_call s) then pbar_update_lvl1 else pbar_update_lvl0) (d_pbar s) (r_score r) p nth;
    sr_ninit : d_n_init_total s' = (if kind then Z.succ (d_n_init_total s) else d_n_init_total s);
    sr_niter : d_n_iter_total s' = (if kind then d_n_iter_total s else Z.succ (d_n_iter_total s));
    sr_sinit : d_n_init_search s' = (if kind then Z.succ (d_n_init_search s) else d_n_init_search s);
    sr_siter : d_n_iter_search s' = (if kind then d_n_iter_search s else Z.succ (d_n_iter_search s));
    sr_clk   : d_clk s' = (4 + d_clk s)%nat;
    sr_evalt : d_eval_times s' = d_eval_times s ++ [clk (2 + d_clk s)%nat - clk (1 + d_clk s)%nat];
    sr_itert : d_iter_times s' = d_iter_times s ++ [clk (3 + d_clk s)%nat - clk (d_clk s)];
    sr_call  : d_call s' = d_call s;
    sr_start : d_start s' = d_start s;
    sr_norm  : d_n_inits_norm s' = d_n_inits_norm s;
    sr_pub   : d_best_score s' = d_best_score s /\ d_best_value s' = d_best_value s /\ d_memory_dict s' = d_memory_dict s
  }.

  (* the state score_of leaves, from the state s it was entered with and the state sb its lookup left *)
  Definition scored (s sb : drvO) (r : result) (v : values) : drvO :=
    sb <| d_rows ::= (fun l => l ++ [result_row r v]) |> <| d_clk ::= S |>
       <| d_eval_times ::= (fun l => l ++ [clk (d_clk sb) - clk (d_clk s)]) |>.

  Lemma score_of_spec s p sc s' :
    score_of sp f clk s p = Ok (sc, s') ->
    exists v r sb, position2value sp p = Ok v /\ sc = r_score r /\
      lookup_rel (s <| d_clk ::= S |>) v r sb /\ s' = scored s sb r v.
  Proof.
    unfold score_of, tick. intros H. cbn in H.
    step_bind H as v Ev. step_bind H as [r sb] El.
    apply lookup_spec in El. inv_ok H.
    exists v, r, sb. repeat split; auto.
  Qed.

  (* lookup touches the call log and the two dictionaries only *)
  Definition looked (sa : drvO) (fc : list values) (m mn : @memdict result) : drvO :=
    sa <| d_fcalls := fc |> <| d_mem := m |> <| d_mem_new := mn |>.

  Lemma lookup_rel_shape sa v r sb : lookup_rel sa v r sb -> exists fc m mn, sb = looked sa fc m mn.
  Proof.
    intros [(_ & _ & ->) | (_ & key & _ & [(_ & ->) | (_ & _ & ->)])].
    - exists (d_fcalls sa ++ [v]), (d_mem sa), (d_mem_new sa). reflexivity.
    - exists (d_fcalls sa), (d_mem sa), (d_mem_new sa). destruct sa; reflexivity.
    - exists (d_fcalls sa ++ [v]), (dict_set pos_eqb key r (d_mem sa)), (dict_set pos_eqb key r (d_mem_new sa)). reflexivity.
  Qed.

  Lemma pbar_update_if (s : drvO) sc p k :
    pbar_update s sc p k = (if c_lvl1 (d_call s) then pbar_update_lvl1 else pbar_update_lvl0) (d_pbar s) sc p k.
  Proof. unfold pbar_update. destruct (c_lvl1 (d_call s)); reflexivity. Qed.

  (* the part of gen_step after the optimizer has digested the score: t0 the clock reading the step began
     with, s the state score_of returned.  Kept folded, the state after a step is a small term whose fields
     the kernel computes on demand. *)
  Definition step_end (bump : drvO -> drvO) (t0 nth : Z) (p : pos) (sc : score) (o2 : ost OP) (s : drvO) : drvO :=
    let s := s <| d_opt := o2 |> <| d_pos_l ::= (fun l => l ++ [p]) |> <| d_score_l ::= (fun l => l ++ [sc]) |> in
    let s := bump (s <| d_pbar := pbar_update s sc p nth |>) in
    s <| d_clk ::= S |> <| d_iter_times ::= (fun l => l ++ [clk (d_clk s) - t0]) |>.

  Lemma gen_step_unfold propose digest bump s nth :
    gen_step propose digest bump s nth =
    do op <- propose (d_opt s); let '(o1, p) := op in
    do ss <- score_of sp f clk (s <| d_clk ::= S |> <| d_opt := o1 |>) p; let '(sc, s1) := ss in
    do o2 <- digest (d_opt s1) sc; Ok (step_end bump (clk (d_clk s)) nth p sc o2 s1).
  Proof. reflexivity. Qed.

  (* the state a step leaves: o1 the optimizer after proposing p, r the result of looking v up, fc, m, mn what the
     lookup left in the call log and the two dictionaries, o2 the optimizer after digesting the score.  The layers
     stay folded until step_state_rel computes with them: a goal in which they are written out as record updates is
     dear to rewrite in and to re-check. *)
  Definition step_state (bump : drvO -> drvO) (s : drvO) (nth : Z) (p : pos) (v : values) (r : result)
             (o1 o2 : ost OP) (fc : list values) (m mn : @memdict result) : drvO :=
    step_end bump (clk (d_clk s)) nth p (r_score r) o2
      (scored (s <| d_clk ::= S |> <| d_opt := o1 |>) (looked (s <| d_clk ::= S |> <| d_opt := o1 |> <| d_clk ::= S |>) fc m mn) r v).

  Lemma step_state_rel (kind : bool) s nth p v r o1 o2 fc m mn :
    position2value sp p = Ok v ->
    lookup_rel (s <| d_clk ::= S |> <| d_opt := o1 |> <| d_clk ::= S |>) v r
               (looked (s <| d_clk ::= S |> <| d_opt := o1 |> <| d_clk ::= S |>) fc m mn) ->
    step_rel kind s nth (step_state (if kind then bump_init else bump_iter) s nth p v r o1 o2 fc m mn) p v r.
  Proof.
    intros Hv Hl.
    (* fc, m, mn on the left: asked whether d_fcalls of the step's state is d_fcalls of the lookup's, the checker
       first compares the two states, field by field through all the updates *)
    assert (L : exists sa sb, lookup_rel sa v r sb /\
                  d_fcalls sa = d_fcalls s /\ d_mem sa = d_mem s /\ d_mem_new sa = d_mem_new s /\ d_call sa = d_call s /\
                  fc = d_fcalls sb /\ m = d_mem sb /\ mn = d_mem_new sb)
      by (eexists _, _; split; [exact Hl|repeat split; reflexivity]).
    destruct kind; constructor;
      first [reflexivity | exact Hv | exact L | exact (pbar_update_if s (r_score r) p nth) | repeat split; reflexivity].
  Qed.

  Lemma gen_step_spec (kind : bool) propose digest s nth s' :
    gen_step propose digest (if kind then bump_init else bump_iter) s nth = Ok s' ->
    exists p v r, step_rel kind s nth s' p v r /\
      exists o1, propose (d_opt s) = Ok (o1, p) /\ digest o1 (r_score r) = Ok (d_opt s').
  Proof.
    rewrite gen_step_unfold. intros H.
    step_bind H as [o1 p] Ep.
    step_bind H as [sc s1] Es.
    apply score_of_spec in Es. destruct Es as (v & r & sb & Hv & -> & Hl & ->).
    step_bind H as o2 Ed. apply ok_inj in H. subst s'.
    destruct (lookup_rel_shape _ _ _ _ Hl) as (fc & m & mn & ->).
    exists p, v, r. split; [exact (step_state_rel kind s nth p v r o1 o2 fc m mn Hv Hl)|].
    exists o1. split; [reflexivity|destruct kind; exact Ed].
  Qed.

  Lemma initialization_spec s nth s' :
    initialization sp f clk s nth = Ok s' -> exists p v r, step_rel true s nth s' p v r /\
      exists o1, o_init_pos OP (d_opt s) = Ok (o1, p) /\ o_eval_init OP o1 (r_score r) = Ok (d_opt s').
  Proof. rewrite initialization_gen. apply (gen_step_spec true). Qed.

  Lemma iteration_spec s nth s' :
    iteration sp f clk s nth = Ok s' -> exists p v r, step_rel false s nth s' p v r /\
      exists o1, o_iterate OP (d_opt s) = Ok (o1, p) /\ o_evaluate OP o1 (r_score r) = Ok (d_opt s').
  Proof. rewrite iteration_gen. apply (gen_step_spec false). Qed.

  Lemma step_lookup kind s k s' p v r : step_rel kind s k s' p v r ->
    let called := r = f (length (d_fcalls s)) v /\ d_fcalls s' = d_fcalls s ++ [v] in
    if c_memory (d_call s)
    then exists key, value2position sp v = Ok key /\
           match dict_get pos_eqb key (d_mem s) with
           | Some r0 => r = r0 /\ d_fcalls s' = d_fcalls s /\ d_mem s' = d_mem s
           | None => called /\ d_mem s' = dict_set pos_eqb key r (d_mem s)
           end
    else called /\ d_mem s' = d_mem s.
  Proof.
    intros R. destruct (sr_look _ _ _ _ _ _ _ R) as (sa & sb & Hl & A1 & A2 & A3 & A4 & B1 & B2 & B3).
    rewrite <- A4, <- A1, <- A2, B1, B2. clear - Hl.
    destruct Hl as [(-> & -> & ->) | (-> & key & Hk & [(Hg & ->) | (Hg & -> & ->)])].
    - repeat split; reflexivity.
    - exists key. split; [exact Hk|]. rewrite Hg. repeat split; reflexivity.
    - exists key. split; [exact Hk|]. rewrite Hg. repeat split; reflexivity.
  Qed.

  (* the per-call counters at the start of step k of a call: of the k steps done, the first min(k, n_inits_norm) were
     initialisation steps, the others iterations *)
  Definition cinv (s : drvO) (k : Z) : Prop :=
    0 <= k /\ d_n_init_search s = Z.min k (Z.max 0 (d_n_inits_norm s)) /\
    d_n_iter_search s = k - d_n_init_search s.

  Definition is_init_step (s : drvO) (k : Z) : bool := k <? d_n_inits_norm s.

  (* what the optimizer was asked to do in step k *)
  Definition opt_rel (s : drvO) (k : Z) (s' : drvO) (p : pos) (sc : score) : Prop :=
    if is_init_step s k
    then exists o1, o_init_pos OP (d_opt s) = Ok (o1, p) /\ o_eval_init OP o1 sc = Ok (d_opt s')
    else exists o0 o1, (if k =? d_n_init_search s then o_finish_init OP (d_opt s) = Ok o0 else o0 = d_opt s) /\
                       o_iterate OP o0 = Ok (o1, p) /\ o_evaluate OP o1 sc = Ok (d_opt s').

  Lemma step_rel_set_opt kind s o k s' p v r :
    step_rel kind (s <| d_opt := o |>) k s' p v r -> step_rel kind s k s' p v r.
  Proof. intros [ ]. constructor; assumption. Qed.

  Lemma step_rel_cinv s k s' p v r :
    cinv s k -> step_rel (is_init_step s k) s k s' p v r -> cinv s' (k + 1).
  Proof.
    intros (Hk & Hi & Hj) R. unfold cinv.
    rewrite (sr_norm _ _ _ _ _ _ _ R), (sr_sinit _ _ _ _ _ _ _ R), (sr_siter _ _ _ _ _ _ _ R).
    unfold is_init_step. destruct (Z.ltb_spec k (d_n_inits_norm s)); lia.
  Qed.

  (* the second `if` of search_step *)
  Lemma finish_init_if (s : drvO) k s2 :
    (if k =? d_n_init_search s then do o' <- o_finish_init OP (d_opt s); Ok (s <| d_opt := o' |>) else Ok s) = Ok s2 ->
    exists o0, (if k =? d_n_init_search s then o_finish_init OP (d_opt s) = Ok o0 else o0 = d_opt s) /\
               s2 = s <| d_opt := o0 |>.
  Proof.
    destruct (k =? d_n_init_search s); intros H.
    - step_bind H as o' E. inv_ok H. eauto.
    - inv_ok H. exists (d_opt s2). split; [reflexivity|]. destruct s2; reflexivity.
  Qed.

  Lemma search_step_spec s k s' :
    cinv s k -> k < c_n_iter (d_call s) ->
    search_step sp f clk s k = Ok s' ->
    exists p v r, step_rel (is_init_step s k) s k s' p v r /\ opt_rel s k s' p (r_score r).
  Proof.
    intros (Hk & Hi & Hj) Hn H. unfold search_step in H. unfold opt_rel, is_init_step.
    destruct (k <? d_n_inits_norm s) eqn:Ck; step_bind H as s1 E.
    - (* initialisation step: it leaves n_init_search = k + 1, so neither later test fires *)
      apply initialization_spec in E. destruct E as (p & v & r & R & Ho).
      pose proof (sr_sinit _ _ _ _ _ _ _ R) as Si. cbn in Si.
      replace (k =? d_n_init_search s1) with false in H by (symmetry; apply Z.eqb_neq; lia).
      cbn [bind] in H.
      replace (d_n_init_search s1 <=? k) with false in H by (symmetry; apply Z.leb_gt; lia).
      inv_ok H. exists p, v, r. split; assumption.
    - (* iteration step, possibly preceded by finish_initialization *)
      inv_ok E. step_bind H as s2 Ef. apply finish_init_if in Ef. destruct Ef as (o0 & Hf & ->).
      assert (Hc : (d_n_init_search (s1 <| d_opt := o0 |>) <=? k) && (k <? c_n_iter (d_call (s1 <| d_opt := o0 |>))) = true)
        by (apply andb_true_intro; split; [apply Z.leb_le|apply Z.ltb_lt]; cbn; lia).
      rewrite Hc in H. apply iteration_spec in H. destruct H as (p & v & r & R & o1 & Ho1 & Ho2).
      apply step_rel_set_opt in R. exists p, v, r. split; [assumption|]. exists o0, o1. auto.
  Qed.

  (* the clock readings one stop check makes: one when a time limit is set, else none *)
  Definition rc (s : drvO) : nat := if check_reads_clock (c_stop (d_call s)) then 1%nat else 0%nat.

  Lemma stop_check_spec s b s' :
    stop_check clk s = Ok (b, s') ->
    check (c_stop (d_call s)) (d_start s) (if check_reads_clock (c_stop (d_call s)) then clk (d_clk s) else 0)
          (pb_best (d_pbar s)) (d_score_l s) = Ok b /\
    s' = s <| d_clk := (rc s + d_clk s)%nat |>.
  Proof.
    unfold stop_check, rc, tick. intros H.
    destruct (check_reads_clock (c_stop (d_call s))) eqn:R; cbn in H.
    - step_bind H as b0 E. inv_ok H. split; reflexivity.
    - step_bind H as b0 E. inv_ok H. split; [reflexivity|]. destruct s'; reflexivity.
  Qed.

  (* an event: one step's position, its decoding, and the result the row got *)
  Definition ev := (pos * values * result)%type.
  Definition ev_pos (e : ev) : pos := fst (fst e).
  Definition ev_val (e : ev) : values := snd (fst e).
  Definition ev_res (e : ev) : result := snd e.
  Definition ev_score (e : ev) : score := r_score (snd e).
  Definition ev_row (e : ev) : row := result_row (snd e) (snd (fst e)).

  (* states at the top of the loop: tr = the steps done so far in this call, none of whose
     checks stopped the search *)
  Inductive reach (s0 : drvO) : list ev -> drvO -> Prop :=
  | reach_nil : reach s0 [] s0
  | reach_step tr s s1 s2 p v r :
      reach s0 tr s ->
      search_step sp f clk s (zlen tr) = Ok s1 ->
      step_rel (is_init_step s (zlen tr)) s (zlen tr) s1 p v r ->
      opt_rel s (zlen tr) s1 p (r_score r) ->
      stop_check clk s1 = Ok (false, s2) ->
      reach s0 (tr ++ [(p, v, r)]) s2.

  (* how search()'s loop ends *)
  Inductive ended (s0 : drvO) (n : Z) : list ev -> drvO -> bool -> Prop :=
  | ended_exhausted tr s : reach s0 tr s -> zlen tr = n -> ended s0 n tr s false
  | ended_stopped tr s s1 s2 p v r :
      reach s0 tr s -> zlen tr < n ->
      search_step sp f clk s (zlen tr) = Ok s1 ->
      step_rel (is_init_step s (zlen tr)) s (zlen tr) s1 p v r ->
      opt_rel s (zlen tr) s1 p (r_score r) ->
      stop_check clk s1 = Ok (true, s2) ->
      ended s0 n (tr ++ [(p, v, r)]) s2 true.

  (* what reach and ended have in common: tr steps done since s0, each followed by its check, whatever the
     verdicts.  Everything about the state that does not depend on the verdicts is proved once, by induction
     on this relation. *)
  Inductive stepped (s0 : drvO) : list ev -> drvO -> Prop :=
  | stepped_nil : stepped s0 [] s0
  | stepped_snoc tr s s1 b s2 p v r :
      stepped s0 tr s ->
      step_rel (is_init_step s (zlen tr)) s (zlen tr) s1 p v r ->
      opt_rel s (zlen tr) s1 p (r_score r) ->
      stop_check clk s1 = Ok (b, s2) ->
      stepped s0 (tr ++ [(p, v, r)]) s2.

  Lemma reach_stepped s0 tr s : reach s0 tr s -> stepped s0 tr s.
  Proof. induction 1; econstructor; eassumption. Qed.

  Lemma ended_stepped s0 n tr s b : ended s0 n tr s b -> stepped s0 tr s.
  Proof.
    intros [tr' s' Hr _ | tr' s' s1 s2 p v r Hr _ _ R Ho Hk]; [|econstructor; [|eassumption..]];
      apply reach_stepped; assumption.
  Qed.

  Lemma stepped_cinv s0 tr s : cinv s0 0 -> stepped s0 tr s -> cinv s (zlen tr).
  Proof.
    intros H0. induction 1 as [|tr s s1 b s2 p v r _ IH R _ Hk]; [exact H0|].
    apply stop_check_spec in Hk. destruct Hk as [_ ->]. rewrite zlen_snoc.
    exact (step_rel_cinv _ _ _ _ _ _ IH R).
  Qed.

  Lemma stepped_prefix s0 tr s : stepped s0 tr s ->
    forall j, (j <= length tr)%nat -> exists sj, stepped s0 (firstn j tr) sj.
  Proof.
    induction 1 as [|tr s s1 b s2 p v r St IH R Ho Hk]; intros j Hj.
    - exists s0. rewrite firstn_nil. constructor.
    - rewrite app_length in Hj. cbn in Hj. destruct (Nat.eq_dec j (length tr + 1)) as [->|Hne].
      + rewrite firstn_all2 by (rewrite app_length; cbn; lia). exists s2. econstructor; eassumption.
      + rewrite firstn_snoc_le by lia. apply IH. lia.
  Qed.

  Definition best_step (b : score * option pos) (e : ev) : score * option pos :=
    if better (ev_score e) (fst b) (snd b) then (ev_score e, Some (ev_pos e)) else b.
  Definition pb_pair (b : pbar) : score * option pos := (pb_best b, pb_pos b).

  (* both update paths make the same decision and differ in the "since" counter only *)
  Lemma pbar_update_spec (lvl1 : bool) b sc p k : exists z,
    (if lvl1 then pbar_update_lvl1 b sc p k else pbar_update_lvl0 b sc p k) =
    if better sc (pb_best b) (pb_pos b) then mkPbar sc (Some p) z else mkPbar (pb_best b) (pb_pos b) z.
  Proof.
    destruct b as [bb bp bz]. unfold pbar_update_lvl1, pbar_update_lvl0, new2best, better. cbn.
    destruct lvl1, (sgt sc bb) eqn:G; cbn; rewrite ?G; cbn; destruct (is_none bp && seqb sc bb); eexists; reflexivity.
  Qed.

  Lemma pbar_update_pair (lvl1 : bool) b p k r (v : values) :
    pb_pair ((if lvl1 then pbar_update_lvl1 else pbar_update_lvl0) b (r_score r) p k) = best_step (pb_pair b) (p, v, r).
  Proof.
    destruct (pbar_update_spec lvl1 b (r_score r) p k) as [z E].
    unfold best_step, pb_pair, ev_score, ev_pos.
    destruct lvl1; rewrite E; destruct (better _ _ _); reflexivity.
  Qed.

  (* the number of the first clock reading of step i of the call begun in s0: a step and its check take 4 + rc readings *)
  Definition cidx (s0 : drvO) (i : nat) : nat := (d_clk s0 + i * (4 + rc s0))%nat.

  (* the state reached from s0 by the steps tr, field by field: the invariant of the induction over stepped.  The
     clock, which the checks move as well, is kept beside it (stepped_traced). *)
  Record traced (s0 : drvO) (tr : list ev) (s : drvO) : Prop := {
    t_rows  : d_rows s = d_rows s0 ++ map ev_row tr;
    t_pos   : d_pos_l s = d_pos_l s0 ++ map ev_pos tr;
    t_score : d_score_l s = d_score_l s0 ++ map ev_score tr;
    t_p2v   : Forall (fun e => position2value sp (ev_pos e) = Ok (ev_val e)) tr;
    t_pbar  : pb_pair (d_pbar s) = fold_left best_step tr (pb_pair (d_pbar s0));
    t_tinit : d_n_init_total s - d_n_init_search s = d_n_init_total s0 - d_n_init_search s0;
    t_titer : d_n_iter_total s - d_n_iter_search s = d_n_iter_total s0 - d_n_iter_search s0;
    t_evalt : d_eval_times s = d_eval_times s0 ++
                map (fun i => clk (2 + cidx s0 i)%nat - clk (1 + cidx s0 i)%nat) (seq 0 (length tr));
    t_itert : d_iter_times s = d_iter_times s0 ++
                map (fun i => clk (3 + cidx s0 i)%nat - clk (cidx s0 i)) (seq 0 (length tr));
    t_call  : d_call s = d_call s0;
    t_start : d_start s = d_start s0;
    t_norm  : d_n_inits_norm s = d_n_inits_norm s0
  }.

  Lemma traced_refl s0 : traced s0 [] s0.
  Proof. constructor; cbn; rewrite ?app_nil_r; auto. Qed.

  Lemma traced_check s0 tr s b s' : stop_check clk s = Ok (b, s') -> traced s0 tr s -> traced s0 tr s'.
  Proof.
    intros H T. apply stop_check_spec in H. destruct H as [_ ->]. destruct T. constructor; assumption.
  Qed.

  Lemma traced_step s0 tr s kind s1 p v r :
    traced s0 tr s -> d_clk s = cidx s0 (length tr) ->
    step_rel kind s (zlen tr) s1 p v r -> traced s0 (tr ++ [(p, v, r)]) s1.
  Proof.
    intros T Hc R. destruct T, R. constructor.
    - rewrite sr_rows0, t_rows0, map_app, app_assoc. reflexivity.
    - rewrite sr_pos0, t_pos0, map_app, app_assoc. reflexivity.
    - rewrite sr_score0, t_score0, map_app, app_assoc. reflexivity.
    - apply Forall_app. split; [assumption|]. constructor; [exact sr_p2v0|constructor].
    - rewrite fold_left_app. rewrite <- t_pbar0, sr_pbar0.
      apply pbar_update_pair.
    - rewrite sr_ninit0, sr_sinit0. destruct kind; lia.
    - rewrite sr_niter0, sr_siter0. destruct kind; lia.
    - rewrite sr_evalt0, t_evalt0, app_length. rewrite Nat.add_1_r, seq_S, map_app.
      cbn [map]. rewrite Hc, app_assoc. reflexivity.
    - rewrite sr_itert0, t_itert0, app_length. rewrite Nat.add_1_r, seq_S, map_app.
      cbn [map]. rewrite Hc, app_assoc. reflexivity.
    - congruence.
    - congruence.
    - congruence.
  Qed.

  Lemma stepped_traced s0 tr s : stepped s0 tr s -> traced s0 tr s /\ d_clk s = cidx s0 (length tr).
  Proof.
    induction 1 as [|tr s s1 b s2 p v r _ [IH Hc] R _ Hk].
    - split; [apply traced_refl|]. unfold cidx. cbn. lia.
    - split.
      + eapply traced_check; [exact Hk|]. eapply traced_step; eauto.
      + apply stop_check_spec in Hk. destruct Hk as [_ ->]. cbn.
        rewrite (sr_clk _ _ _ _ _ _ _ R), Hc, app_length. cbn [length].
        unfold cidx, rc. rewrite (sr_call _ _ _ _ _ _ _ R), (t_call _ _ _ IH). nia.
  Qed.

  Lemma loop_ended s0 : cinv s0 0 -> forall todo tr s s',
    reach s0 tr s -> zlen tr + Z.of_nat todo = c_n_iter (d_call s0) ->
    loop sp f clk todo (zlen tr) s = Ok s' ->
    exists tr' b, ended s0 (c_n_iter (d_call s0)) tr' s' b.
  Proof.
    intros H0. induction todo as [|todo IH]; intros tr s s' Hr Hn Hl.
    - inv_ok Hl. exists tr, false. constructor; [assumption|lia].
    - cbn [loop] in Hl. step_bind Hl as s1 E. step_bind Hl as [b s2] Ek.
      pose proof (reach_stepped _ _ _ Hr) as St. pose proof (t_call _ _ _ (proj1 (stepped_traced _ _ _ St))) as Hcall.
      destruct (search_step_spec _ _ _ (stepped_cinv _ _ _ H0 St) ltac:(rewrite Hcall; lia) E) as (p & v & r & R & Ho).
      destruct b.
      + inv_ok Hl. exists (tr ++ [(p, v, r)]), true. econstructor; eauto. lia.
      + assert (Hr2 : reach s0 (tr ++ [(p, v, r)]) s2) by (econstructor; eauto).
        apply (IH _ _ _ Hr2); [rewrite zlen_snoc; lia|]. rewrite zlen_snoc. exact Hl.
  Qed.

  (* StopRun.check() evaluated after the last step of the (non-empty) prefix tr of the call *)
  Definition stop_after (s0 : drvO) (tr : list ev) : res bool :=
    check (c_stop (d_call s0)) (d_start s0)
          (if check_reads_clock (c_stop (d_call s0)) then clk (4 + cidx s0 (length tr - 1))%nat else 0)
          (fst (fold_left best_step tr (pb_pair (d_pbar s0))))
          (d_score_l s0 ++ map ev_score tr).

  Lemma post_step_check s0 tr s s1 p v r b s2 :
    stepped s0 tr s ->
    step_rel (is_init_step s (zlen tr)) s (zlen tr) s1 p v r ->
    stop_check clk s1 = Ok (b, s2) ->
    stop_after s0 (tr ++ [(p, v, r)]) = Ok b.
  Proof.
    intros St R Hk. destruct (stepped_traced _ _ _ St) as [T Hc].
    pose proof (traced_step _ _ _ _ _ _ _ _ T Hc R) as T1.
    apply stop_check_spec in Hk. destruct Hk as [Hk _].
    unfold stop_after. rewrite <- (t_call _ _ _ T1), <- (t_start _ _ _ T1), <- (t_pbar _ _ _ T1), <- (t_score _ _ _ T1).
    rewrite app_length. cbn [length]. replace (length tr + 1 - 1)%nat with (length tr) by lia.
    rewrite <- Hc, <- (sr_clk _ _ _ _ _ _ _ R). exact Hk.
  Qed.

  Lemma reach_none_stopped s0 tr s : reach s0 tr s ->
    forall j, (0 < j <= length tr)%nat -> stop_after s0 (firstn j tr) = Ok false.
  Proof.
    induction 1 as [|tr s s1 s2 p v r Hr IH Hs R Ho Hk]; intros j Hj; [cbn in Hj; lia|].
    rewrite app_length in Hj. cbn in Hj. destruct (Nat.eq_dec j (length tr + 1)) as [->|Hne].
    - rewrite firstn_all2 by (rewrite app_length; cbn; lia).
      exact (post_step_check _ _ _ _ _ _ _ _ _ (reach_stepped _ _ _ Hr) R Hk).
    - rewrite firstn_snoc_le by lia. apply IH. lia.
  Qed.

  Lemma ended_stop_after s0 n tr sE b : ended s0 n tr sE b ->
    (forall j, (0 < j < length tr)%nat -> stop_after s0 (firstn j tr) = Ok false) /\
    (zlen tr = n \/ (tr <> [] /\ stop_after s0 tr = Ok true)) /\ zlen tr <= n.
  Proof.
    intros [tr' s' Hr Hn | tr' s' s1 s2 p v r Hr Hn Hs R Ho Hk].
    - split; [|split; [left; assumption|lia]]. intros j Hj. apply (reach_none_stopped _ _ _ Hr). lia.
    - rewrite zlen_snoc. split; [|split; [right; split|lia]].
      + intros j Hj. rewrite app_length in Hj. cbn in Hj. rewrite firstn_snoc_le by lia.
        apply (reach_none_stopped _ _ _ Hr). lia.
      + destruct tr'; discriminate.
      + exact (post_step_check _ _ _ _ _ _ _ _ _ (reach_stepped _ _ _ Hr) R Hk).
  Qed.

  Lemma ended_exact s0 n tr sE b (P : list ev -> bool) :
    ended s0 n tr sE b ->
    (forall tr', tr' <> [] -> forall b', stop_after s0 tr' = Ok b' -> b' = P tr') ->
    (forall j, (0 < j < length tr)%nat -> P (firstn j tr) = false) /\
    (zlen tr = n \/ (tr <> [] /\ P tr = true)) /\ zlen tr <= n.
  Proof.
    intros He HP. destruct (ended_stop_after _ _ _ _ _ He) as (Hearly & Hlast & Hle).
    split; [|split; [|exact Hle]].
    - intros j Hj. symmetry. apply HP; [|apply Hearly; exact Hj].
      intros E. apply (f_equal (@length ev)) in E. rewrite firstn_length in E. cbn in E. lia.
    - destruct Hlast as [Hl|[Hne Hl]]; [left; exact Hl|right].
      split; [exact Hne|]. symmetry. exact (HP _ Hne _ Hl).
  Qed.

  (* I: an invariant of the optimizer's state; Q: a property of every position it emits *)
  Record opt_contract (I : ost OP -> Prop) (Q : pos -> Prop) : Prop := {
    oc_init_pos : forall st st' p, I st -> o_init_pos OP st = Ok (st', p) -> I st' /\ Q p;
    oc_iterate  : forall st st' p, I st -> o_iterate OP st = Ok (st', p) -> I st' /\ Q p;
    oc_eval_init : forall st sc st', I st -> o_eval_init OP st sc = Ok st' -> I st';
    oc_evaluate : forall st sc st', I st -> o_evaluate OP st sc = Ok st' -> I st';
    oc_finish : forall st st', I st -> o_finish_init OP st = Ok st' -> I st'
  }.

  (* J st H: an invariant of the optimizer's state relative to the list H of (position, score) pairs
     evaluated so far; each driver step extends H by the pair it evaluated *)
  Record opt_hist_contract (J : ost OP -> list (pos * score) -> Prop) : Prop := {
    ohc_init : forall st st1 p sc st2 H, J st H -> o_init_pos OP st = Ok (st1, p) ->
                 o_eval_init OP st1 sc = Ok st2 -> J st2 (H ++ [(p, sc)]);
    ohc_iter : forall st st1 p sc st2 H, J st H -> o_iterate OP st = Ok (st1, p) ->
                 o_evaluate OP st1 sc = Ok st2 -> J st2 (H ++ [(p, sc)]);
    ohc_finish : forall st st' H, J st H -> o_finish_init OP st = Ok st' -> J st' H
  }.

  Definition ev_pair (e : ev) : pos * score := (ev_pos e, ev_score e).

  Lemma opt_contract_hist I Q :
    opt_contract I Q -> opt_hist_contract (fun st H => I st /\ Forall Q (map fst H)).
  Proof.
    intros C.
    assert (Hsnoc : forall (H : list (pos * score)) p sc, Forall Q (map fst H) -> Q p -> Forall Q (map fst (H ++ [(p, sc)]))).
    { intros H p sc HF Hq. rewrite map_app. apply Forall_app. split; [exact HF|]. constructor; [exact Hq|constructor]. }
    constructor.
    - intros st st1 p sc st2 H [Hi HF] A B. destruct (oc_init_pos _ _ C _ _ _ Hi A) as [I1 Hq].
      split; [exact (oc_eval_init _ _ C _ _ _ I1 B)|auto].
    - intros st st1 p sc st2 H [Hi HF] A B. destruct (oc_iterate _ _ C _ _ _ Hi A) as [I1 Hq].
      split; [exact (oc_evaluate _ _ C _ _ _ I1 B)|auto].
    - intros st st' H [Hi HF] A. split; [exact (oc_finish _ _ C _ _ Hi A)|exact HF].
  Qed.

  Lemma opt_rel_hist J s k s' p sc H :
    opt_hist_contract J -> J (d_opt s) H -> opt_rel s k s' p sc -> J (d_opt s') (H ++ [(p, sc)]).
  Proof.
    intros C Hj Ho. unfold opt_rel in Ho. destruct (is_init_step s k).
    - destruct Ho as (o1 & A & B). eapply ohc_init; eauto.
    - destruct Ho as (o0 & o1 & A & B & D).
      assert (J0 : J o0 H). { destruct (k =? d_n_init_search s); [eapply ohc_finish; eauto|subst; assumption]. }
      eapply ohc_iter; eauto.
  Qed.

  Lemma stepped_hist J s0 tr s H0 :
    opt_hist_contract J -> J (d_opt s0) H0 -> stepped s0 tr s -> J (d_opt s) (H0 ++ map ev_pair tr).
  Proof.
    intros C Hj. induction 1 as [|tr s s1 b s2 p v r _ IH R Ho Hk].
    - rewrite app_nil_r. assumption.
    - apply stop_check_spec in Hk. destruct Hk as [_ ->]. rewrite map_app, app_assoc.
      exact (opt_rel_hist J _ _ _ _ _ _ C IH Ho).
  Qed.

  (* the state init_search leaves: the per-call fields reset, m the memory dictionary of the call *)
  Definition call_start (s : drvO) (c : call) (m : @memdict result) : drvO :=
    s <| d_n_init_search := 0 |> <| d_n_iter_search := 0 |> <| d_call := c |> <| d_clk ::= S |>
      <| d_start := clk (d_clk s) |> <| d_pbar := pbar_init |> <| d_mem := m |> <| d_mem_new := [] |>
      <| d_n_inits_norm := Z.min (o_n_inits OP (d_opt s) - d_n_init_total s) (c_n_iter c) |>.

  (* not as the equation init_search s c = do m <- memory_init c; Ok (call_start s c m): it holds by conversion, but
     checking it compares two differently nested chains of updates field by field, at exponential cost *)
  Lemma init_search_spec (s : drvO) c (s0 : drvO) :
    init_search sp clk s c = Ok s0 -> exists m, memory_init sp c = Ok m /\ s0 = call_start s c m.
  Proof.
    unfold init_search, tick. cbn. intros H. step_bind H as m Em. inv_ok H. exists m. split; reflexivity.
  Qed.

  Lemma call_start_cinv s c m : cinv (call_start s c m) 0.
  Proof. unfold cinv. cbn. lia. Qed.

  (* the checks of a call, in terms of the object it started from: reading d_clk s is start_time, and when
     the checks read the clock a step takes five readings, the fifth being its check's *)
  Lemma stop_after_start s c m tr :
    stop_after (call_start s c m) tr =
    check (c_stop c) (clk (d_clk s))
          (if check_reads_clock (c_stop c) then clk (d_clk s + 5 + 5 * (length tr - 1))%nat else 0)
          (fst (fold_left best_step tr (SNInf, None))) (d_score_l s ++ map ev_score tr).
  Proof.
    unfold stop_after, cidx, rc. cbn -[Nat.mul Nat.add Nat.sub].
    destruct (check_reads_clock (c_stop c)); [|reflexivity]. do 2 f_equal. lia.
  Qed.

  Theorem search_spec s c s' :
    0 <= c_n_iter c -> search sp f clk s c = Ok s' ->
    exists s0 tr sE b, init_search sp clk s c = Ok s0 /\ ended s0 (c_n_iter c) tr sE b /\ finish_search sp sE = Ok s'.
  Proof.
    intros Hn Hs. unfold search in Hs. step_bind Hs as s0 Ei. step_bind Hs as sE El.
    destruct (init_search_spec _ _ _ Ei) as (m & _ & E0).
    destruct (loop_ended s0 ltac:(rewrite E0; apply call_start_cinv) (Z.to_nat (c_n_iter c)) [] s0 sE (reach_nil s0)
                ltac:(rewrite E0; cbn; lia) El) as (tr & b & He).
    rewrite E0 in He at 2. exists s0, tr, sE, b. auto.
  Qed.

  Lemma finish_search_spec (sE s' : drvO) :
    finish_search sp sE = Ok s' ->
    exists bv, (match pb_pos (d_pbar sE) with
                | None => bv = None
                | Some p => exists v, position2value sp p = Ok v /\ bv = Some v end) /\
      s' = sE <| d_best_score := pb_best (d_pbar sE) |> <| d_best_value := bv |>
              <| d_memory_dict := if c_memory (d_call sE) then d_mem sE else [] |>.
  Proof.
    unfold finish_search. intros H. step_bind H as bv E. inv_ok H. exists bv. split; [|reflexivity].
    destruct (pb_pos (d_pbar sE)).
    - step_bind E as v Ev. inv_ok E. eauto.
    - inv_ok E. reflexivity.
  Qed.

End Facts.

(* one search() call as a function of its trace: s the object before the call, m the memory the call
   starts from, tr the steps it ran, sE the state when the loop ended, s' the object after the call.
   Every parameter is implicit, so that a clause of Tr : call_trace reads `ct_rows Tr`; the type is written
   `@call_trace s c m tr sE s'` in this section and `@call_trace OP sp f clk s c m tr sE s'` outside it.  In ct_evalt and ct_itert, cidx (call_start clk s c m) i is reading number
   d_clk s + 1 + i * (4 + rc): the call has used reading d_clk s for its start time. *)
Section Trace.
  Context {OP : optimizer} {sp : space} {f : nat -> values -> result} {clk : nat -> Z}.

  Record call_trace {s : drv OP} {c : call} {m : @memdict result} {tr : list ev} {sE s' : drv OP} : Prop := {
    ct_mem   : memory_init sp c = Ok m;
    ct_run   : stepped sp f clk (call_start clk s c m) tr sE;
    ct_opt   : d_opt s' = d_opt sE;
    ct_calls : d_fcalls s' = d_fcalls sE;
    ct_dict  : d_memory_dict s' = if c_memory c then d_mem sE else [];
    ct_rows  : d_rows s' = d_rows s ++ map ev_row tr;
    ct_pos   : d_pos_l s' = d_pos_l s ++ map ev_pos tr;
    ct_score : d_score_l s' = d_score_l s ++ map ev_score tr;
    ct_p2v   : Forall (fun e => position2value sp (ev_pos e) = Ok (ev_val e)) tr;
    ct_best  : d_best_score s' = fst (fold_left best_step tr (SNInf, None));
    ct_bestv : match snd (fold_left best_step tr (SNInf, None)) with
               | None => d_best_value s' = None
               | Some p => exists v, position2value sp p = Ok v /\ d_best_value s' = Some v
               end;
    ct_hist  : forall J H0, opt_hist_contract J -> J (d_opt s) H0 -> J (d_opt s') (H0 ++ map ev_pair tr);
    ct_len   : zlen tr <= c_n_iter c;
    ct_sinit : d_n_init_search s' =
               Z.min (zlen tr) (Z.max 0 (Z.min (o_n_inits OP (d_opt s) - d_n_init_total s) (c_n_iter c)));
    ct_siter : d_n_iter_search s' = zlen tr - d_n_init_search s';
    ct_tinit : d_n_init_total s' = d_n_init_total s + d_n_init_search s';
    ct_titer : d_n_iter_total s' = d_n_iter_total s + d_n_iter_search s';
    ct_evalt : d_eval_times s' = d_eval_times s ++
                 map (fun i => clk (2 + cidx (call_start clk s c m) i)%nat - clk (1 + cidx (call_start clk s c m) i)%nat)
                     (seq 0 (length tr));
    ct_itert : d_iter_times s' = d_iter_times s ++
                 map (fun i => clk (3 + cidx (call_start clk s c m) i)%nat - clk (cidx (call_start clk s c m) i))
                     (seq 0 (length tr));
    ct_call  : d_call s' = c;
    (* no check before the last step's said stop; the last one did unless all n_iter steps ran *)
    ct_early : forall j, (0 < j < length tr)%nat -> stop_after clk (call_start clk s c m) (firstn j tr) = Ok false;
    ct_last  : zlen tr = c_n_iter c \/ (tr <> [] /\ stop_after clk (call_start clk s c m) tr = Ok true)
  }.

  (* the goal fixes s' before the clauses are read: those about sE hold of s' by conversion and would set s' := sE *)
  Arguments Build_call_trace {s c m tr sE s'} &.

  Theorem search_trace s c s' :
    0 <= c_n_iter c -> search sp f clk s c = Ok s' -> exists m tr sE, @call_trace s c m tr sE s'.
  Proof.
    intros Hn Hs. destruct (search_spec _ _ _ _ _ _ Hn Hs) as (s0 & tr & sE & b & Ei & He & Hf).
    destruct (init_search_spec _ _ _ _ _ Ei) as (m & Hm & ->).
    destruct (finish_search_spec _ _ _ Hf) as (bv & Hbv & ->).
    pose proof (ended_stepped _ _ _ _ _ _ _ _ He) as St.
    destruct (stepped_traced _ _ _ _ _ _ St) as [T _].
    destruct (stepped_cinv _ _ _ _ _ _ (call_start_cinv clk s c m) St) as (_ & Ci & Cj).
    destruct (ended_stop_after _ _ _ _ _ _ _ _ He) as (Hearly & Hlast & Hle).
    pose proof (t_pbar _ _ _ _ _ T) as Tp. change (pb_pair (d_pbar (call_start clk s c m))) with (SNInf, @None pos) in Tp.
    exists m, tr, sE.
    refine {| ct_mem := Hm; ct_run := St; ct_opt := eq_refl; ct_calls := eq_refl; ct_dict := _;
              ct_rows := t_rows _ _ _ _ _ T; ct_pos := t_pos _ _ _ _ _ T; ct_score := t_score _ _ _ _ _ T;
              ct_p2v := t_p2v _ _ _ _ _ T; ct_best := f_equal fst Tp; ct_bestv := _;
              ct_hist := fun J H0 C Hj => stepped_hist sp f clk J (call_start clk s c m) tr sE H0 C Hj St;
              ct_len := Hle; ct_sinit := _; ct_siter := Cj; ct_tinit := _; ct_titer := _;
              ct_evalt := t_evalt _ _ _ _ _ T; ct_itert := t_itert _ _ _ _ _ T; ct_call := t_call _ _ _ _ _ T;
              ct_early := Hearly; ct_last := Hlast |}.
    - rewrite (t_call _ _ _ _ _ T). reflexivity.
    - rewrite <- Tp. cbn. destruct (pb_pos (d_pbar sE)) as [p|].
      + destruct Hbv as (v & Hv & ->). exists v. split; [exact Hv|reflexivity].
      + subst bv. reflexivity.
    - rewrite (t_norm _ _ _ _ _ T) in Ci. exact Ci.
    - pose proof (t_tinit _ _ _ _ _ T) as Ti. cbn in Ti |- *. lia.
    - pose proof (t_titer _ _ _ _ _ T) as Ti. cbn in Ti |- *. lia.
  Qed.
  Lemma ct_no_stop {s c m tr sE s'} : @call_trace s c m tr sE s' -> c_stop c = no_stop -> zlen tr = c_n_iter c.
  Proof.
    intros Tr Hno. destruct (ct_last Tr) as [Hl|[_ Hl]]; [exact Hl|]. rewrite stop_after_start, Hno in Hl. discriminate.
  Qed.
End Trace.
