(* C14 — max_time: no step starts after the time budget is exhausted. *)
Require Import Base StopRun Converter Driver DriverFacts.

Section C14.
  Context {OP : optimizer}.
  Variable sp : space.
  Variable f : nat -> values -> result.
  Variable clk : nat -> Z.

  (* clock readings of a call that starts when c0 readings were consumed: reading c0 is
     start_time; step j (0-based) reads c0+1+5j .. c0+4+5j (iter t0, eval t0, eval t1, iter t1)
     and the check after step j reads c0+5+5j *)
  Definition elapsed_after (c0 : nat) (j : nat) : Z := clk (c0 + 5 + 5 * j)%nat - clk c0.

  Definition C14_statement : Prop :=
    forall (s s' : drv OP) (c : call) (T : Z),
      c_stop c = mkStop (Some T) None None -> 0 < T -> 0 <= c_n_iter c ->
      search sp f clk s c = Ok s' ->
      exists k : nat,                                        (* rows produced by this call *)
        length (d_rows s') = (length (d_rows s) + k)%nat /\
        Z.of_nat k <= c_n_iter c /\
        (forall j, (j + 1 < k)%nat -> elapsed_after (d_clk s) j <= T) /\     (* no earlier stop *)
        (Z.of_nat k = c_n_iter c \/ (0 < k)%nat /\ T < elapsed_after (d_clk s) (k - 1)).

  Lemma stop_after_time (s : drv OP) c m T tr :
    c_stop c = mkStop (Some T) None None -> 0 < T ->
    stop_after clk (call_start clk s c m) tr = Ok (T <? elapsed_after (d_clk s) (length tr - 1)).
  Proof.
    intros Hc HT. rewrite stop_after_start, Hc. unfold check, check_reads_clock, time_exceeded, elapsed_after. cbn [st_max_time].
    replace (T =? 0) with false by (symmetry; apply Z.eqb_neq; lia). cbn [negb andb].
    destruct (T <? _); reflexivity.
  Qed.

  Theorem C14_holds : C14_statement.
  Proof.
    intros s s' c T Hm HT Hni Hs.
    destruct (search_trace s c s' Hni Hs) as (m & tr & sE & Tr).
    exists (length tr). split; [|split; [exact (ct_len Tr)|split]].
    - rewrite (ct_rows Tr), app_length, map_length. reflexivity.
    - intros j Hj. pose proof (ct_early Tr (j + 1)%nat ltac:(lia)) as He.
      rewrite (stop_after_time _ _ _ T _ Hm HT), firstn_length in He. injection He as He.
      replace (Nat.min (j + 1) (length tr) - 1)%nat with j in He by lia. apply Z.ltb_ge. exact He.
    - destruct (ct_last Tr) as [Hl|[Hne Hl]]; [left; exact Hl|right].
      rewrite (stop_after_time _ _ _ T _ Hm HT) in Hl. injection Hl as Hl.
      split; [destruct tr; [contradiction|cbn; lia]|apply Z.ltb_lt; exact Hl].
  Qed.
End C14.
