(* C10 — warm-start points are always evaluated during initialisation. *)
Require Import Base BaseFacts Converter ConverterFacts ListFacts DictFacts Init.
Require Import StopRun Driver DriverFacts Tracker Algos AlgoFacts.
From RecordUpdate Require Import RecordSet.
Import RecordSetNotations.

Theorem warm_start_key_order_irrelevant sp names (w w' : para) :
  NoDup (map fst w) -> NoDup (map fst w') -> (forall x, In x w <-> In x w') ->
  warm_start_position sp names w = warm_start_position sp names w'.
Proof.
  intros Hn Hn' Hp. unfold warm_start_position, para2value.
  (* reading by name does not depend on the order of the dictionary's items *)
  rewrite (map_res_ext_in _ (fun nm => match dict_get Z.eqb nm w' with Some x => Ok x | None => Err KeyError end)); [reflexivity|].
  intros nm _. rewrite (dict_get_same_items Z.eqb_spec w w' nm Hn Hn' Hp). reflexivity.
Qed.

Theorem warm_start_in_space sp names (p : pos) (v : values) (w : para) :
  distinct_dims sp -> in_box sp p -> position2value sp p = Ok v -> para2value names w = Ok v ->
  warm_start_position sp names w = Ok p.
Proof. intros Hd Hb Hp Hw. unfold warm_start_position. rewrite Hw. apply position_roundtrip; assumption. Qed.

Lemma filter_res_spec {A} (g : A -> res bool) l out : filter_res g l = Ok out ->
  (forall x, In x out <-> In x l /\ g x = Ok true) /\ (length out <= length l)%nat.
Proof.
  revert out. induction l as [|y l IH]; intros out H; cbn in H; [inversion H; cbn; split; [tauto|lia]|].
  destruct (g y) as [b|] eqn:Ey; cbn in H; [|discriminate]. destruct (filter_res g l) as [r|]; cbn in H; [|discriminate].
  inversion H; subst. destruct (IH r eq_refl) as [I L]. split; [|destruct b; cbn; lia].
  intros x. destruct b; cbn; rewrite I; [split; [intros [<-|[]]; auto|tauto]|].
  split; [tauto|]. intros [[->|Hx] Hg]; [congruence|tauto].
Qed.

(* a feasible warm-start position survives the filter and sits in the assembled list before the sum of the planned counts;
   that this sum is the Initializer's n_inits is InitTie.init_spec (for the generated code: source_warm_start_in_init_list) *)
Theorem warm_start_in_init_list sp cons names (ws : list para) (warm : list pos) w p
        (rnd grid vert fill : list pos) (n_rnd n_grid n_vert : nat) :
  init_warm_start sp cons names ws = Ok warm ->
  In w ws -> warm_start_position sp names w = Ok p -> not_in_constraint sp cons p = Ok true ->
  (length rnd <= n_rnd)%nat -> (length grid <= n_grid)%nat -> (length vert <= n_vert)%nat ->
  exists i, nth_error (assemble rnd grid vert warm fill) i = Some p /\ (i < n_rnd + n_grid + n_vert + length ws)%nat.
Proof.
  intros Hw Hin Hp Hf Hr Hg Hv. unfold init_warm_start in Hw.
  destruct (map_res (warm_start_position sp names) ws) as [ps|] eqn:Eps; cbn in Hw; [|discriminate].
  assert (Hinps : In p ps).
  { destruct (map_res_ok_all _ _ _ Eps w Hin) as (y & Hy & Hy'). rewrite Hp in Hy. inversion Hy; subst. assumption. }
  destruct (filter_res_spec _ _ _ Hw) as [I Hlw]. rewrite (map_res_length _ _ _ Eps) in Hlw.
  destruct (In_nth_error _ _ (proj2 (I p) (conj Hinps Hf))) as [j Hj].
  assert (j < length warm)%nat by (apply nth_error_Some; congruence).
  exists (length rnd + (length grid + (length vert + j)))%nat. split; [|lia].
  unfold assemble. rewrite !nth_error_app_plus, nth_error_app1 by lia. exact Hj.
Qed.

Lemma every_nth_aux_nth {A} (l : list A) P : forall fuel idx q, (q < fuel)%nat ->
  nth_error (every_nth_aux fuel l idx P) q = nth_error l (idx + q * P).
Proof.
  induction fuel as [|f IH]; intros idx q Hq; [lia|]. cbn [every_nth_aux].
  destruct (nth_error l idx) as [x|] eqn:E.
  - destruct q as [|q]; cbn.
    + rewrite Nat.add_0_r. symmetry. exact E.
    + rewrite IH by lia. f_equal. lia.
  - apply nth_error_None in E. symmetry. destruct q; apply nth_error_None; lia.
Qed.

Theorem split_round_robin {A} (l : list A) (P t : nat) : (0 < P)%nat -> (t < length l)%nat ->
  pop_init_pos (split l P) P t = nth_error l t.
Proof.
  intros HP Ht. unfold pop_init_pos, split.
  assert (Hm : (t mod P < P)%nat) by (apply Nat.mod_upper_bound; lia).
  rewrite nth_error_map, (nth_error_seq0 P (t mod P)%nat Hm). cbn [option_map].
  pose proof (Nat.div_mod t P ltac:(lia)) as D.
  rewrite every_nth_aux_nth by nia.
  f_equal. lia.
Qed.

(* record of defect D10 (fixed in /repo): read positionally, {"y":105, "x":3} was taken as x=105, y=3 *)
Example key_order_unfixed :
  let sp := [[1; 2; 3; 4]; [100; 105; 110]] in
  warm_start_position_unfixed sp [(1, 105); (0, 3)] = Ok [3; 0] /\
  warm_start_position sp [0; 1] [(1, 105); (0, 3)] = Ok [2; 1].
Proof. split; reflexivity. Qed.

Section InitServed.
  Variable c : algo_cfg.
  Variable f : nat -> values -> result.
  Variable clk : nat -> Z.
  Notation OPT := (algo_optimizer c).

  Lemma stepped_init_prefix (s0 : drv OPT) tr s : t_nth_init (h_trk (d_opt s0)) = 0 ->
    stepped (a_sp c) f clk s0 tr s -> zlen tr <= d_n_inits_norm s0 ->
    t_nth_init (h_trk (d_opt s)) = zlen tr /\ h_inits (d_opt s) = h_inits (d_opt s0) /\
    map ev_pos tr = firstn (length tr) (h_inits (d_opt s0)).
  Proof.
    intros H0. induction 1 as [|tr s s1 b s2 p v r St IH R Ho Hk]; intros Hle.
    - split; [exact H0|]. split; reflexivity.
    - rewrite zlen_snoc in *. destruct (IH ltac:(lia)) as (A & B & C).
      (* n_inits_norm is constant along a run, so this step too is an initialisation step *)
      unfold opt_rel, is_init_step in Ho. rewrite (t_norm _ _ _ _ _ (proj1 (stepped_traced _ _ _ _ _ _ St))) in Ho.
      replace (zlen tr <? d_n_inits_norm s0) with true in Ho by (symmetry; apply Z.ltb_lt; lia).
      destruct Ho as (o1 & Hi & He).
      destruct (algo_init_pos_spec _ _ _ Hi) as (En & Et & Ei & _). destruct (algo_evaluate_init_spec _ _ _ He) as (Ee & Ei' & _).
      (* the stop check leaves the optimizer alone *)
      apply stop_check_spec in Hk. destruct Hk as [_ ->]. cbn [d_opt set].
      rewrite (evaluate_init_nth_init _ _ _ Ee), Et, Ei', Ei, B. cbn. rewrite A.
      split; [lia|]. split; [reflexivity|].
      rewrite A, B in En. apply nth_nowrap_ok in En. destruct En as [_ Eq]. unfold zlen in Eq. rewrite Nat2Z.id in Eq.
      rewrite map_app, C, app_length, Nat.add_1_r. symmetry. apply firstn_snoc_nth, Eq.
  Qed.

  Theorem family_inits_served (s s' : drv OPT) (cl : call) :
    d_n_init_total s = 0 -> t_nth_init (h_trk (d_opt s)) = 0 ->
    c_stop cl = no_stop -> zlen (h_inits (d_opt s)) <= c_n_iter cl ->
    search (a_sp c) f clk s cl = Ok s' ->
    exists tr : list ev, d_pos_l s' = d_pos_l s ++ map ev_pos tr /\
      map ev_pos (firstn (length (h_inits (d_opt s))) tr) = h_inits (d_opt s).
  Proof.
    intros Hz Hn0 Hns Hle Hs.
    assert (Hni : 0 <= c_n_iter cl) by (pose proof (zlen_nonneg (h_inits (d_opt s))); lia).
    destruct (search_trace s cl s' Hni Hs) as (m & tr & sE & Tr).
    exists tr. split; [exact (ct_pos Tr)|].
    (* without stopping criteria the loop ran all N steps, so the first n_inits of them are a run of their own *)
    pose proof (ct_no_stop Tr Hns) as Hlen. set (n := length (h_inits (d_opt s))) in *.
    assert (Hn : (n <= length tr)%nat) by (unfold zlen in *; lia).
    destruct (stepped_prefix _ _ _ _ _ _ (ct_run Tr) n Hn) as (sj & Hrj).
    assert (Hlj : length (firstn n tr) = n) by (rewrite firstn_length; lia).
    destruct (stepped_init_prefix (call_start clk s cl m) _ sj Hn0 Hrj) as (_ & _ & F).
    { cbn. rewrite Hz. unfold zlen in *. rewrite Hlj. fold n. lia. }
    rewrite F, Hlj. apply firstn_all.
  Qed.
End InitServed.
