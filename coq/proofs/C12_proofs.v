(* C12 — max_score stops the search exactly when the target is reached. *)
Require Import Base StopRun Converter Driver DriverFacts StopFacts.

Section C12.
  Context {OP : optimizer}.
  Variable sp : space.
  Variable f : nat -> values -> result.
  Variable clk : nat -> Z.

  Definition only_max_score (c : call) (m : score) : Prop := c_stop c = mkStop None (Some m) None.

  (* the full statement of the property, for one search() call *)
  Definition C12_statement : Prop :=
    forall (s s' : drv OP) (c : call) (m : score),
      only_max_score c m -> m <> SNInf -> 0 <= c_n_iter c ->
      search sp f clk s c = Ok s' ->
      exists sc : list score,                       (* the scores of this call's steps, in order *)
        d_score_l s' = d_score_l s ++ sc /\
        length (d_rows s') = (length (d_rows s) + length sc)%nat /\
        match first_reach m sc with
        | Some k => length sc = S k                 (* stopped right after the first step reaching m *)
        | None => zlen sc = c_n_iter c              (* nobody reached m: all n_iter steps ran *)
        end /\
        (sge (d_best_score s') m = true <-> exists x, In x sc /\ sge x m = true).

  Lemma stop_after_max_score (s : drv OP) c mm m tr :
    only_max_score c m -> m <> SNInf ->
    stop_after clk (call_start clk s c mm) tr = Ok (existsb (fun x => sge x m) (map ev_score tr)).
  Proof.
    intros Hc Hm. rewrite stop_after_start, Hc. unfold check. cbn. rewrite (best_reaches tr m Hm).
    destruct (existsb _ _); reflexivity.
  Qed.

  Theorem C12_holds : C12_statement.
  Proof.
    intros s s' c m Hm Hninf Hn Hs.
    destruct (search_trace s c s' Hn Hs) as (mm & tr & sE & Tr).
    pose proof (stop_after_max_score s c mm m) as Hsa.
    exists (map ev_score tr). split; [exact (ct_score Tr)|split; [|split]].
    - rewrite (ct_rows Tr), app_length, !map_length. reflexivity.
    - (* no proper prefix of the scores reaches m, the whole list does unless all n_iter steps ran *)
      assert (He : forall j, (0 < j < length (map ev_score tr))%nat ->
                     existsb (fun x => sge x m) (firstn j (map ev_score tr)) = false).
      { intros j Hj. rewrite map_length in Hj. pose proof (ct_early Tr j Hj) as H.
        rewrite Hsa, <- firstn_map in H by assumption. injection H as H. exact H. }
      apply (first_reach_exact m) in He. destruct (first_reach m (map ev_score tr)) as [k|]; [exact He|].
      destruct (ct_last Tr) as [Hl|[_ Hl]]; [unfold zlen; rewrite map_length; exact Hl|].
      rewrite Hsa, He in Hl by assumption. discriminate.
    - rewrite (ct_best Tr), (best_reaches tr m Hninf). apply existsb_exists.
  Qed.
End C12.

(* the unchanged tree's truthiness reading is refuted for m = 0 (kept as the record of defect D1) *)
Definition check_truthy (m : option score) (best : score) : bool := score_exceeded_truthy best m.
Lemma truthy_zero_never_stops : forall best, check_truthy (Some (SFin 0)) best = false.
Proof. intros best. reflexivity. Qed.
