(* C03 — search(n_iter=N) performs exactly N steps; step accounting is exact. *)
Require Import Base BaseFacts StopRun Converter Driver DriverFacts.

Section C03.
  Context {OP : optimizer}.
  Variable sp : space.
  Variable f : nat -> values -> result.
  Variable clk : nat -> Z.

  (* what one search() call does to the accounting, for any stopping configuration *)
  Record call_accounting (s : drv OP) (c : call) (s' : drv OP) (k : Z) : Prop := {
    ca_range   : 0 <= k <= c_n_iter c;
    ca_nostop  : c_stop c = no_stop -> k = c_n_iter c;
    ca_rows    : zlen (d_rows s') = zlen (d_rows s) + k;
    ca_pos     : zlen (d_pos_l s') = zlen (d_pos_l s) + k;
    ca_scores  : zlen (d_score_l s') = zlen (d_score_l s) + k;
    ca_evalt   : zlen (d_eval_times s') = zlen (d_eval_times s) + k;
    ca_itert   : zlen (d_iter_times s') = zlen (d_iter_times s) + k;
    (* initial positions first: the first min(remaining inits, N, k) steps are initialisation steps *)
    ca_inits   : d_n_init_total s' = d_n_init_total s +
                   Z.min k (Z.max 0 (Z.min (o_n_inits OP (d_opt s) - d_n_init_total s) (c_n_iter c)));
    ca_iters   : d_n_iter_total s' - d_n_iter_total s = k - (d_n_init_total s' - d_n_init_total s);
    ca_search  : d_n_init_search s' = d_n_init_total s' - d_n_init_total s /\
                 d_n_iter_search s' = d_n_iter_total s' - d_n_iter_total s;
    (* the old entries are untouched and the new times are differences of clock readings *)
    ca_times   : exists ne ni, d_eval_times s' = d_eval_times s ++ ne /\ d_iter_times s' = d_iter_times s ++ ni /\
                   ((forall a b, (a <= b)%nat -> clk a <= clk b) -> Forall2 (fun e i => 0 <= e <= i) ne ni)
  }.

  Definition C03_call_statement : Prop :=
    forall (s s' : drv OP) (c : call), 0 <= c_n_iter c ->
      search sp f clk s c = Ok s' -> exists k, call_accounting s c s' k.

  Theorem C03_call_holds : C03_call_statement.
  Proof.
    intros s s' c Hni Hs.
    destruct (search_trace s c s' Hni Hs) as (m & tr & sE & Tr).
    pose proof (zlen_nonneg tr) as Hk0. pose proof (ct_len Tr) as Hle.
    pose proof (ct_siter Tr) as Sj. pose proof (ct_tinit Tr) as Ti. pose proof (ct_titer Tr) as Tj.
    (* the accounting is linear in the number of initialisation steps; its min/max form (ct_sinit) is kept out of
       lia's sight, which splits cases on every min and max of the context *)
    exists (zlen tr). constructor.
    - lia.
    - exact (ct_no_stop Tr).
    - rewrite (ct_rows Tr), zlen_app, zlen_map. reflexivity.
    - rewrite (ct_pos Tr), zlen_app, zlen_map. reflexivity.
    - rewrite (ct_score Tr), zlen_app, zlen_map. reflexivity.
    - rewrite (ct_evalt Tr), zlen_app, zlen_map. unfold zlen. rewrite seq_length. reflexivity.
    - rewrite (ct_itert Tr), zlen_app, zlen_map. unfold zlen. rewrite seq_length. reflexivity.
    - rewrite Ti, (ct_sinit Tr). reflexivity.
    - lia.
    - lia.
    - eexists _, _. split; [exact (ct_evalt Tr)|]. split; [exact (ct_itert Tr)|]. intros Hmono.
      generalize (seq 0 (length tr)). intros l. induction l as [|i l IH]; cbn [map]; constructor; [|assumption].
      set (k := cidx (call_start clk s c m) i).
      pose proof (Hmono k (1 + k)%nat ltac:(lia)). pose proof (Hmono (1 + k)%nat (2 + k)%nat ltac:(lia)).
      pose proof (Hmono (2 + k)%nat (3 + k)%nat ltac:(lia)). lia.
  Qed.

  Fixpoint total_n (cs : list call) : Z := match cs with [] => 0 | c :: tl => c_n_iter c + total_n tl end.

  Definition C03_history_statement : Prop :=
    forall (n_inits : Z),
      opt_contract (fun st => o_n_inits OP st = n_inits) (fun _ => True) ->
      forall (cs : list call) (s s' : drv OP),
        Forall (fun c => 0 <= c_n_iter c /\ c_stop c = no_stop) cs ->
        o_n_inits OP (d_opt s) = n_inits -> 0 <= d_n_init_total s <= n_inits ->
        searches sp f clk s cs = Ok s' ->
        zlen (d_rows s') = zlen (d_rows s) + total_n cs /\
        zlen (d_eval_times s') = zlen (d_eval_times s) + total_n cs /\
        zlen (d_iter_times s') = zlen (d_iter_times s) + total_n cs /\
        d_n_init_total s' = Z.min n_inits (d_n_init_total s + total_n cs) /\
        d_n_init_total s' + d_n_iter_total s' = d_n_init_total s + d_n_iter_total s + total_n cs.

  Lemma search_keeps_contract I Q (s s' : drv OP) c :
    opt_contract I Q -> 0 <= c_n_iter c -> I (d_opt s) -> search sp f clk s c = Ok s' -> I (d_opt s').
  Proof.
    intros C Hni Hi Hs. destruct (search_trace s c s' Hni Hs) as (m & tr & sE & Tr).
    exact (proj1 (ct_hist Tr _ [] (opt_contract_hist I Q C) (conj Hi (Forall_nil Q)))).
  Qed.

  Lemma total_n_nonneg cs : Forall (fun c => 0 <= c_n_iter c) cs -> 0 <= total_n cs.
  Proof. induction 1 as [|c cs H _ IH]; cbn; lia. Qed.

  Theorem C03_history_holds : C03_history_statement.
  Proof.
    intros n_inits C cs. induction cs as [|c cs IH]; intros s s' Hall Hn Hr Hs; cbn [searches] in Hs.
    - inv_ok Hs. cbn. repeat split; lia.
    - step_bind Hs as s1 E. apply Forall_cons_iff in Hall. destruct Hall as [[Hc1 Hc2] Hall'].
      destruct (C03_call_holds s s1 c Hc1 E) as (k & A).
      pose proof (ca_nostop _ _ _ _ A Hc2) as Hk. subst k.
      pose proof (search_keeps_contract _ _ s s1 c C Hc1 Hn E) as Hn'.
      (* the call adds min(remaining inits, n_iter) initialisation steps; only the fourth clause looks inside *)
      assert (Hi : d_n_init_total s1 = d_n_init_total s + Z.min (n_inits - d_n_init_total s) (c_n_iter c))
        by (rewrite (ca_inits _ _ _ _ A), Hn; clear - Hc1 Hr; lia).
      destruct (IH s1 s' Hall' Hn' ltac:(clear - Hc1 Hr Hi; lia) Hs) as (B1 & B2 & B3 & B4 & B5).
      pose proof (ca_iters _ _ _ _ A) as Hj. pose proof (total_n_nonneg cs (Forall_impl _ (fun c => @proj1 _ _) Hall')) as Ht.
      pose proof (ca_rows _ _ _ _ A) as Hro. pose proof (ca_evalt _ _ _ _ A) as He. pose proof (ca_itert _ _ _ _ A) as Hit.
      cbn [total_n]. repeat split; [clear - Hro B1|clear - He B2|clear - Hit B3|clear - Hc1 Hr Ht Hi B4|clear - Hj B5]; lia.
  Qed.
End C03.
