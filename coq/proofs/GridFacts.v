(* GridFacts.v — number theory of the diagonal orbit, mixed-radix decoding, the direction search. *)
Require Import Base Grid.
From Coq Require Import Znumtheory.

(* in_dims (dim_sizes sp), unfolded, is ConverterFacts.in_box sp: CoreFacts.in_box_dim_sizes *)
Definition in_dims (dims : list Z) (p : pos) : Prop := Forall2 (fun d i => 0 <= i < d) dims p.

Lemma zprod_cons d dims : zprod (d :: dims) = d * zprod dims.
Proof. reflexivity. Qed.

Lemma zprod_pos dims : Forall (fun d => 1 <= d) dims -> 1 <= zprod dims.
Proof. induction 1 as [|d dims Hd _ IH]; [cbn; lia | rewrite zprod_cons; nia]. Qed.

Lemma div_mod_eq a m q r : 0 <= r < m -> a = m * q + r -> a / m = q /\ a mod m = r.
Proof. intros Hr E. split; symmetry; [apply (Z.div_unique a m q r)|apply (Z.mod_unique a m q r)]; auto. Qed.

Section Orbit.
Variables S s d m : Z.
Hypothesis Hs : 0 < s.
Hypothesis Hm : 0 < m.
Hypothesis HS : S = m * s.

Lemma ts_div t : t * s / S = t / m.
Proof. rewrite HS. apply Z.div_mul_cancel_r; lia. Qed.

Lemma div_mod_bounds t : 0 <= t < S -> 0 <= t / m < s /\ 0 <= t mod m < m.
Proof. intros Ht. split; [split; [apply Z.div_pos; lia | apply Z.div_lt_upper_bound; nia] | apply Z.mod_pos_bound; lia]. Qed.

Lemma pass_finished_iff t : 1 <= t -> pass_finished S s t = true <-> t mod m = 0.
Proof.
  intros Ht. unfold pass_finished. rewrite !ts_div, Z.ltb_lt.
  pose proof (Z.div_mod t m ltac:(lia)) as E. pose proof (Z.mod_pos_bound t m Hm) as B.
  pose proof (Z.div_mod (t - 1) m ltac:(lia)) as E'. pose proof (Z.mod_pos_bound (t - 1) m Hm) as B'.
  split; intros H; nia.
Qed.

(* the pointer of trial t in closed form: pass t / m starts at offset t / m, then t mod m strides of s * d *)
Definition cf (t : Z) : Z := (t / m + t mod m * s * d) mod S.

Lemma cf_range t : 0 <= cf t < S.
Proof. apply Z.mod_pos_bound. nia. Qed.

Lemma cf_0 : cf 0 = 0.
Proof. reflexivity. Qed.

Lemma orbit_mod_s r j : 0 <= r < s -> (r + j * s * d) mod S mod s = r.
Proof.
  intros Hr. rewrite <- Zmod_div_mod; [|lia|nia|exists m; exact HS].
  replace (r + j * s * d) with (r + (j * d) * s) by ring.
  rewrite Z.mod_add by lia. apply Z.mod_small. exact Hr.
Qed.

(* the recurrence of the source follows the closed form: inside a pass one stride further, at the end of a pass
   (t mod m = m - 1) to the next offset *)
Lemma next_cf t : 0 <= t -> t + 1 < S -> next_ptr S s d (t + 1) (cf t) = cf (t + 1).
Proof.
  intros Ht Ht1. destruct (div_mod_bounds t ltac:(lia)) as [Bq Br]. pose proof (Z.div_mod t m ltac:(lia)) as E.
  unfold next_ptr, next_ptr_gen, pass_finished. rewrite Z.add_simpl_r, !ts_div.
  destruct (Z.eq_dec (t mod m + 1) m) as [L|L].
  - destruct (div_mod_eq (t + 1) m (t / m + 1) 0) as [Dq Dr]; [lia|lia|].
    rewrite (proj2 (Z.ltb_lt _ _)) by lia. unfold cf. rewrite orbit_mod_s, Dq, Dr by lia.
    rewrite Z.add_0_r. symmetry. apply Z.mod_small. destruct (div_mod_bounds (t + 1)); lia.
  - destruct (div_mod_eq (t + 1) m (t / m) (t mod m + 1)) as [Dq Dr]; [lia|lia|].
    rewrite Dq, Z.ltb_irrefl. unfold cf. rewrite Dq, Dr, Zplus_mod_idemp_l. f_equal. ring.
Qed.

Hypothesis Hg : Z.gcd d S = 1.

(* offset r < s and stride count j < m are determined by the pointer: r is its residue mod s, and s * d * (j - j') = 0
   in Z/(m * s) forces m | j - j' because d is a unit (Gauss) *)
Lemma orbit_inj r j r' j' : 0 <= r < s -> 0 <= r' < s -> 0 <= j < m -> 0 <= j' < m ->
  (r + j * s * d) mod S = (r' + j' * s * d) mod S -> r = r' /\ j = j'.
Proof.
  intros Hr Hr' Hj Hj' H.
  assert (r = r') by (rewrite <- (orbit_mod_s r j), H, orbit_mod_s; auto). subst r'. split; [reflexivity|].
  assert (D : (m | d * (j - j'))).
  { exists ((r + j * s * d) / S - (r + j' * s * d) / S). rewrite !Z.mod_eq in H by nia. nia. }
  apply Gauss in D.
  - destruct D as [q Hq]. assert (q = 0) by nia. nia.
  - apply (rel_prime_div S); [apply rel_prime_sym, Zgcd_1_rel_prime; exact Hg|exists s; rewrite HS; ring].
Qed.

Lemma cf_inj t t' : 0 <= t < S -> 0 <= t' < S -> cf t = cf t' -> t = t'.
Proof.
  intros Ht Ht' H. destruct (div_mod_bounds t Ht), (div_mod_bounds t' Ht').
  apply orbit_inj in H; try assumption. destruct H as [E1 E2].
  rewrite (Z.div_mod t m), (Z.div_mod t' m) by lia. rewrite E1, E2. reflexivity.
Qed.
End Orbit.

Lemma orth_pointer_cf S s m t : 0 < s -> 0 < m -> S = m * s -> orth_pointer S s t mod S = cf S s 1 m t.
Proof.
  intros Hs Hm HS. unfold orth_pointer, cf. rewrite (ts_div S s m Hs Hm HS).
  pose proof (Z.div_mod t m ltac:(lia)) as E.
  replace (t * s + t / m) with (t / m + t mod m * s * 1 + t / m * S) by nia.
  apply Z.mod_add. nia.
Qed.

(* on pointers of the space the last digit [ptr] of the source is the regular one: (ptr / 1) mod d *)
Lemma decode_be_cons d dims p : 0 <= p < zprod (d :: dims) ->
  decode_be (d :: dims) p = (p / zprod dims mod d) :: decode_be dims (p mod zprod dims).
Proof.
  intros Hp. destruct dims; [|reflexivity].
  cbn in *. rewrite Z.div_1_r, Z.mod_small by lia. reflexivity.
Qed.

Lemma decode_be_in_dims dims : Forall (fun d => 1 <= d) dims ->
  forall p, 0 <= p < zprod dims -> in_dims dims (decode_be dims p).
Proof.
  induction 1 as [|d dims Hd Hds IH]; intros p Hp; [constructor|].
  pose proof (zprod_pos dims Hds). rewrite decode_be_cons by assumption.
  constructor; [|apply IH]; apply Z.mod_pos_bound; lia.
Qed.

Lemma decode_be_inj dims : Forall (fun d => 1 <= d) dims ->
  forall p q, 0 <= p < zprod dims -> 0 <= q < zprod dims -> decode_be dims p = decode_be dims q -> p = q.
Proof.
  induction 1 as [|d dims Hd Hds IH]; intros p q Hp Hq H; [cbn in *; lia|].
  rewrite !decode_be_cons in H by assumption. rewrite zprod_cons in Hp, Hq.
  injection H as H1 H2.
  apply IH in H2; try (apply Z.mod_pos_bound; lia).
  rewrite !Z.mod_small in H1 by (split; [apply Z.div_pos; lia | apply Z.div_lt_upper_bound; nia]).
  rewrite (Z.div_mod p (zprod dims)), (Z.div_mod q (zprod dims)) by lia. rewrite H1, H2. reflexivity.
Qed.

Lemma decode_be_zero dims : Forall (fun d => 1 <= d) dims -> decode_be dims 0 = map (fun _ => 0) dims.
Proof.
  induction 1 as [|d dims Hd Hds IH]; [reflexivity|].
  pose proof (zprod_pos dims Hds). rewrite decode_be_cons by (rewrite zprod_cons; nia).
  rewrite Z.div_0_l, !Z.mod_0_l, IH by lia. reflexivity.
Qed.

Lemma decode_le_in_dims dims : Forall (fun d => 1 <= d) dims -> forall x, in_dims dims (decode_le dims x).
Proof. induction 1 as [|d dims Hd Hds IH]; intros x; constructor; [apply Z.mod_pos_bound; lia | apply IH]. Qed.

Lemma decode_le_eq dims : Forall (fun d => 1 <= d) dims ->
  forall x y, decode_le dims x = decode_le dims y <-> x mod zprod dims = y mod zprod dims.
Proof.
  induction 1 as [|d dims Hd Hds IH]; intros x y; [cbn; rewrite !Z.mod_1_r; tauto|].
  pose proof (zprod_pos dims Hds). rewrite zprod_cons, !Z.rem_mul_r by lia. cbn [decode_le]. split.
  - intros [= H1 H2]. apply IH in H2. rewrite H1, H2. reflexivity.
  - intros E. pose proof (Z.mod_pos_bound x d ltac:(lia)). pose proof (Z.mod_pos_bound y d ltac:(lia)).
    assert (H2 : (x / d) mod zprod dims = (y / d) mod zprod dims) by nia.
    f_equal; [nia|apply IH, H2].
Qed.

Lemma decode_le_surj dims p : Forall (fun d => 1 <= d) dims -> in_dims dims p ->
  exists x, 0 <= x < zprod dims /\ decode_le dims x = p.
Proof.
  intros Hd Hp. induction Hp as [|d i dims p Hi _ IH]; [exists 0; cbn; split; [lia|reflexivity]|].
  inversion Hd as [|? ? _ Hds]; subst. destruct (IH Hds) as (x & Hx & <-).
  exists (i + x * d). rewrite zprod_cons. split; [nia|].
  cbn [decode_le]. rewrite Z.mod_add, Z.div_add, Z.mod_small, Z.div_small by lia. reflexivity.
Qed.

(* counting down from d0 >= 1 the search ends at 1 at the latest, which is coprime to everything *)
Lemma get_direction_ok S : forall fuel d0, 1 <= d0 -> (Z.to_nat d0 <= fuel)%nat ->
  exists d, get_direction fuel S d0 = Ok d /\ Z.gcd S d = 1 /\ 1 <= d <= d0.
Proof.
  induction fuel as [|f IH]; intros d0 Hd Hf; [lia|].
  cbn [get_direction]. destruct (Z.gcd S d0 =? 1) eqn:G.
  - apply Z.eqb_eq in G. exists d0. repeat split; auto; lia.
  - assert (d0 <> 1). { intros ->. rewrite Z.gcd_1_r in G. discriminate. }
    destruct (IH (d0 - 1) ltac:(lia) ltac:(lia)) as (d & A & B & C). exists d. repeat split; auto; lia.
Qed.
