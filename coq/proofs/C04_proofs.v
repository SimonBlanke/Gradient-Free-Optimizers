(* C04_proofs.v — one record, call_record, describes a search() call with a deterministic objective: its rows (C04:
   search_data is a faithful, ordered record), its objective calls with memory off and on (the single-process part
   of C06: memory is a transparent cache) and its use of the warm-start dictionary (the driver part of C11: those
   entries are trusted verbatim).  C04_holds proves it; Prop_C04, Prop_C06 and Prop_C11 read their clauses off it. *)
Require Import Base Converter Driver DriverFacts ListFacts DictFacts ConverterFacts MemFacts.

Section C04.
  Context {OP : optimizer}.
  Variable sp : space.
  Variable f0 : values -> result.           (* deterministic objective *)
  Variable clk : nat -> Z.
  Notation f := (fun (_ : nat) (v : values) => f0 v).

  Lemma dget_zip_some (ks : list pos) (nc : list values) k r :
    Forall2 (fun v k => value2position sp v = Ok k) nc ks ->
    dict_get pos_eqb k (zip ks (map f0 nc)) = Some r ->
    exists v, In v nc /\ value2position sp v = Ok k /\ r = f0 v.
  Proof.
    intros F2. revert k r. induction F2 as [|v k0 nc ks Hk F2 IH]; intros k r H; cbn in H; [discriminate|].
    destruct (pos_eqb k k0) eqn:E.
    - apply pos_eqb_eq in E. subst k0. inversion H; subst. exists v. split; [left; reflexivity|auto].
    - destruct (IH k r H) as (v' & Hin & Hv & Hr). exists v'. split; [right; assumption|auto].
  Qed.

  (* the full description of one call: its trace, the memory it started from (M0: empty, or the
     warm-start frame's dictionary), the objective calls it made *)
  Record call_record (s : drv OP) (c : call) (s' : drv OP) (M0 : @memdict result) (tr : list ev)
         (nc : list values) (ks : list pos) : Prop := {
    cr_M0    : memory_init sp c = Ok M0;
    cr_rows  : d_rows s' = d_rows s ++ map ev_row tr;
    cr_pos   : d_pos_l s' = d_pos_l s ++ map ev_pos tr;
    cr_score : d_score_l s' = d_score_l s ++ map ev_score tr;
    cr_p2v   : Forall (fun e => position2value sp (ev_pos e) = Ok (ev_val e)) tr;
    (* C04: each row's result is the objective's result at that row's own parameters — or, for a
       position present in the warm-start dictionary, that dictionary's entry (C11) *)
    cr_faith : forall e, In e tr ->
                 ev_res e = f0 (ev_val e) \/
                 (c_memory c = true /\ exists k, value2position sp (ev_val e) = Ok k /\ dict_get pos_eqb k M0 = Some (ev_res e));
    (* C06: objective calls of this call *)
    cr_calls : d_fcalls s' = d_fcalls s ++ nc;
    cr_off   : c_memory c = false -> nc = map ev_val tr;
    cr_once  : c_memory c = true -> NoDup nc /\ Forall2 (fun v k => value2position sp v = Ok k) nc ks /\ NoDup ks /\
                 (forall k, In k ks -> dict_get pos_eqb k M0 = None) /\
                 (forall v, In v nc -> exists e, In e tr /\ ev_val e = v);
    cr_warm_never_called : c_memory c = true -> forall e k, In e tr -> value2position sp (ev_val e) = Ok k ->
                 dict_mem pos_eqb k M0 = true -> ~ In (ev_val e) nc;
    cr_warm_used : c_memory c = true -> forall e k r0, In e tr -> value2position sp (ev_val e) = Ok k ->
                 dict_get pos_eqb k M0 = Some r0 -> ev_res e = r0;
    cr_revisit : c_memory c = true -> forall e1 e2, In e1 tr -> In e2 tr -> ev_val e1 = ev_val e2 -> ev_res e1 = ev_res e2;
    cr_dict  : d_memory_dict s' = (if c_memory c then M0 ++ zip ks (map f0 nc) else []);
    cr_cover : c_memory c = true -> forall e, In e tr -> exists k, value2position sp (ev_val e) = Ok k /\
                 dict_get pos_eqb k (d_memory_dict s') = Some (ev_res e)
  }.

  Definition C04_statement : Prop :=
    forall (s s' : drv OP) (c : call), 0 <= c_n_iter c ->
      search sp f clk s c = Ok s' -> exists M0 tr nc ks, call_record s c s' M0 tr nc ks.

  Theorem C04_holds : C04_statement.
  Proof.
    intros s s' c Hni Hs.
    destruct (search_trace s c s' Hni Hs) as (M0 & tr & sE & Tr).
    pose proof (stepped_minv sp f0 clk _ _ _ (ct_run Tr)) as M.
    change (d_call (call_start clk s c M0)) with c in M.
    pose proof (ct_p2v Tr) as P. rewrite Forall_forall in P.
    exists M0, tr. destruct (c_memory c) eqn:Cm.
    2:{ (* memory off: every clause about memory-on is void *)
      destruct M as [Mf Mres Mmem]. exists (map ev_val tr), []. constructor; try congruence.
      - exact (ct_mem Tr).
      - exact (ct_rows Tr).
      - exact (ct_pos Tr).
      - exact (ct_score Tr).
      - exact (ct_p2v Tr).
      - intros e Hin. left. exact (Mres e Hin).
      - rewrite (ct_calls Tr). exact Mf.
      - rewrite (ct_dict Tr), Cm. reflexivity. }
    destruct M as (nc & ks & [Mf Mkeys Mmem Mnodup Mfresh Mhit Mcalled]).
    change (d_mem (call_start clk s c M0)) with M0 in *.
    (* a key of this call's objective calls determines the value vector: it is the vector of any event with that key *)
    assert (Hkeyval : forall e k r, In e tr -> value2position sp (ev_val e) = Ok k ->
              dict_get pos_eqb k (zip ks (map f0 nc)) = Some r -> r = f0 (ev_val e) /\ In (ev_val e) nc).
    { intros e k r Hin Hk Hg. destruct (dget_zip_some ks nc k r Mkeys Hg) as (v' & Hv'in & Hv'k & ->).
      destruct (Mcalled v' Hv'in) as (e' & He'in & <-).
      rewrite (member_key_inj sp _ _ _ _ k (P e' He'in) (P e Hin) Hv'k Hk) in Hv'in |- *. auto. }
    assert (Hnc : forall v k, In v nc -> value2position sp v = Ok k -> In k ks).
    { intros v k Hin Hk. destruct (Forall2_in_l _ _ _ _ Mkeys Hin) as (k' & Hk' & E). congruence. }
    exists nc, ks. constructor.
    - exact (ct_mem Tr).
    - exact (ct_rows Tr).
    - exact (ct_pos Tr).
    - exact (ct_score Tr).
    - exact (ct_p2v Tr).
    - intros e Hin. destruct (Mhit e Hin) as (k & Hk & Hg). rewrite Mmem, dict_get_app in Hg.
      destruct (dict_get pos_eqb k M0) as [r0|] eqn:G0.
      + right. split; [exact Cm|]. exists k. split; [assumption|]. congruence.
      + left. apply (Hkeyval e k _ Hin Hk Hg).
    - rewrite (ct_calls Tr). exact Mf.
    - congruence.
    - intros _. split; [|auto]. (* NoDup nc: equal value vectors have equal keys *)
      clear - Mkeys Mnodup. induction Mkeys as [|v k nc ks Hk F2 IH]; [constructor|]. inversion Mnodup; subst.
      constructor; [|apply IH; assumption]. intros Hin. destruct (Forall2_in_l _ _ _ _ F2 Hin) as (k' & Hk' & E). congruence.
    - intros _ e k Hin Hk Hmem Hin'. rewrite dict_mem_get, (Mfresh k (Hnc _ _ Hin' Hk)) in Hmem. discriminate.
    - intros _ e k r0 Hin Hk Hg0. destruct (Mhit e Hin) as (k' & Hk' & Hg). assert (k' = k) by congruence. subst k'.
      rewrite Mmem, dict_get_app, Hg0 in Hg. congruence.
    - intros _ e1 e2 H1 H2 Hv. destruct (Mhit e1 H1) as (k1 & K1 & G1). destruct (Mhit e2 H2) as (k2 & K2 & G2).
      rewrite Hv in K1. assert (k1 = k2) by congruence. subst. congruence.
    - rewrite (ct_dict Tr), Cm. exact Mmem.
    - intros _ e Hin. rewrite (ct_dict Tr), Cm. exact (Mhit e Hin).
  Qed.
End C04.
