(* C16 — grid search enumerates the whole space without repetition. *)
Require Import Base Grid ListFacts GridFacts.

(* an injective enumeration of |S| points of the box misses none: pigeonhole against the |S| points decode_le lists *)
Theorem enumeration_covers dims (f : Z -> pos) : Forall (fun d => 1 <= d) dims ->
  (forall t, 0 <= t < zprod dims -> in_dims dims (f t)) ->
  (forall t t', 0 <= t < zprod dims -> 0 <= t' < zprod dims -> f t = f t' -> t = t') ->
  let ps := map (fun t => f (Z.of_nat t)) (seq 0 (Z.to_nat (zprod dims))) in
  NoDup ps /\ Forall (in_dims dims) ps /\ length ps = Z.to_nat (zprod dims) /\ (forall p, in_dims dims p -> In p ps).
Proof.
  intros Hd Hin Hinj ps.
  assert (A : NoDup ps).
  { apply NoDup_map_inj; [apply seq_NoDup|]. intros a b Ha Hb H. apply in_seq in Ha, Hb. apply Hinj in H; lia. }
  assert (B : Forall (in_dims dims) ps).
  { apply Forall_forall. intros q Hq. apply in_map_iff in Hq. destruct Hq as (t & <- & Ht). apply in_seq in Ht. apply Hin. lia. }
  assert (C : length ps = Z.to_nat (zprod dims)) by (unfold ps; rewrite map_length, seq_length; reflexivity).
  repeat split; try assumption.
  set (box := map (fun t => decode_le dims (Z.of_nat t)) (seq 0 (Z.to_nat (zprod dims)))).
  assert (Hbox : forall q, in_dims dims q -> In q box).
  { intros q Hq. destruct (decode_le_surj dims q Hd Hq) as (x & Hx & <-).
    apply in_map_iff. exists (Z.to_nat x). rewrite Z2Nat.id by lia. split; [reflexivity|apply in_seq; lia]. }
  intros p Hp. apply (NoDup_length_incl (l' := box) A).
  - unfold box. rewrite C, map_length, seq_length. lia.
  - intros q Hq. rewrite Forall_forall in B. auto.
  - auto.
Qed.

Definition C16_diag_statement : Prop :=
  forall (dims : list Z) (s d0 : Z),
    Forall (fun d => 1 <= d) dims -> dims <> [] ->
    0 < s -> (s | zprod dims) -> 1 <= d0 ->
    exists ps, diag_run (Z.to_nat (zprod dims)) dims s d0 diag_init = Ok ps /\
               NoDup ps /\ Forall (in_dims dims) ps /\ length ps = Z.to_nat (zprod dims) /\
               (forall p, in_dims dims p -> In p ps).

Lemma diag_run_cf dims s d0 d m : 0 < s -> 0 < m -> zprod dims = m * s ->
  forall n k, Z.of_nat (k + n) < zprod dims ->
  diag_run n dims s d0 (mkDiag (Some d) (cf (zprod dims) s d m (Z.of_nat k)) (Z.of_nat k + 1)) =
  Ok (map (fun t => decode_be dims (cf (zprod dims) s d m (Z.of_nat t))) (seq (S k) n)).
Proof.
  intros Hs Hm HS. induction n as [|n IH]; intros k Hk; [reflexivity|].
  unfold diag_run in *. cbn [diag_run_gen diag_iterate_gen dg_dir dg_ptr dg_trial bind grid_evaluate seq map].
  fold (next_ptr (zprod dims) s d (Z.of_nat k + 1) (cf (zprod dims) s d m (Z.of_nat k))).
  rewrite (next_cf _ s d m Hs Hm HS) by lia.
  unfold grid_evaluate. cbn [dg_dir dg_ptr dg_trial].
  replace (Z.of_nat k + 1) with (Z.of_nat (S k)) by lia. rewrite IH by lia. reflexivity.
Qed.

Theorem C16_diag_holds : C16_diag_statement.
Proof.
  intros dims s d0 Hd _ Hs [m HS] Hd0.
  pose proof (zprod_pos dims Hd) as HSp. assert (Hm : 0 < m) by nia.
  destruct (get_direction_ok (zprod dims) (Z.to_nat d0 + 1) d0 Hd0 ltac:(lia)) as (d & Hgd & Hg & _).
  rewrite Z.gcd_comm in Hg.
  exists (map (fun t => decode_be dims (cf (zprod dims) s d m (Z.of_nat t))) (seq 0 (Z.to_nat (zprod dims)))). split.
  - replace (Z.to_nat (zprod dims)) with (S (Z.to_nat (zprod dims - 1))) by lia.
    unfold diag_run. cbn [diag_run_gen diag_iterate_gen diag_init dg_dir dg_ptr dg_trial grid_evaluate seq map]. rewrite Hgd. cbn [bind].
    rewrite (diag_run_cf dims s d0 d m Hs Hm HS _ 0%nat) by lia.
    rewrite cf_0, decode_be_zero by assumption. reflexivity.
  - apply (enumeration_covers dims (fun t => decode_be dims (cf (zprod dims) s d m t)) Hd).
    + intros t _. apply decode_be_in_dims; [assumption|]. apply cf_range; lia.
    + intros t t' Ht Ht' E. apply decode_be_inj in E; try assumption; try (apply cf_range; lia).
      apply (cf_inj _ s d m Hs Hm HS Hg); assumption.
Qed.

Definition C16_orth_statement : Prop :=
  forall (dims : list Z) (s : Z),
    Forall (fun d => 1 <= d) dims -> 0 < s -> (s | zprod dims) ->
    let ps := orth_run (Z.to_nat (zprod dims)) dims s in
    NoDup ps /\ Forall (in_dims dims) ps /\ length ps = Z.to_nat (zprod dims) /\
    (forall p, in_dims dims p -> In p ps).

Theorem C16_orth_holds : C16_orth_statement.
Proof.
  intros dims s Hd Hs [m HS]. pose proof (zprod_pos dims Hd) as HSp. assert (Hm : 0 < m) by nia.
  apply (enumeration_covers dims (orth_iterate dims s) Hd).
  - intros t _. apply decode_le_in_dims. assumption.
  - intros t t' Ht Ht' E. apply decode_le_eq in E; [|assumption].
    rewrite !(orth_pointer_cf _ s m) in E by assumption.
    apply (cf_inj _ s 1 m Hs Hm HS (Z.gcd_1_l _)); assumption.
Qed.

(* record of defect D4 (fixed in /repo): with the unchanged pass test the 1x4 space with step 1 is
   enumerated 0,1,2,1 — point 3 is missed in the first |S| steps *)
Example diag_offbyone_unfixed :
  diag_run_gen pass_finished_unfixed 4 [4] 1 1 diag_init = Ok [[0]; [1]; [2]; [1]] /\
  diag_run 4 [4] 1 1 diag_init = Ok [[0]; [1]; [2]; [3]].
Proof. split; reflexivity. Qed.
