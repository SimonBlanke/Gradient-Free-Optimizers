(* C05 — best_score / best_para are the true best of this call's rows. *)
Require Import Base BaseFacts ListFacts Converter Driver DriverFacts StopFacts.

(* b is "the best of tr": nobody is strictly better; without a position the score is still -inf and every score so
   far was NaN (a score tying -inf already provides one); otherwise the position is that of the FIRST event
   attaining the best score *)
Definition is_best_of (tr : list ev) (b : score * option pos) : Prop :=
  fst b <> SNaN /\
  (forall e, In e tr -> sgt (ev_score e) (fst b) = false) /\
  match snd b with
  | None => fst b = SNInf /\ (forall e, In e tr -> is_nan (ev_score e) = true)
  | Some p => exists tr1 e tr2, tr = tr1 ++ e :: tr2 /\ ev_pos e = p /\ ev_score e = fst b /\
                (forall e', In e' tr1 -> sgt (fst b) (ev_score e') = true \/ is_nan (ev_score e') = true)
  end.

Lemma nan_not_gt x y : is_nan x = true -> sgt x y = false.
Proof. destruct x; cbn; congruence. Qed.

(* invariant of the fold, started from (-inf, None): the score is the running maximum (BaseFacts' upd lemmas);
   the position changes when an event beats the score, or is the first to tie -inf *)
Lemma best_fold_spec (tr : list ev) : is_best_of tr (fold_left best_step tr (SNInf, None)).
Proof.
  induction tr as [|e tr IH] using rev_ind.
  - cbn. repeat split; try discriminate; intros e [].
  - rewrite fold_left_app. cbn [fold_left]. set (b := fold_left best_step tr (SNInf, None)) in *.
    destruct IH as (Hn & Hmax & Hpos). split; [|split].
    + rewrite best_step_fst. apply sgt_upd_notnan, Hn.
    + rewrite best_step_fst. apply forall_snoc; [|apply sgt_upd_self].
      intros e' Hin. apply sgt_upd_mono; auto.
    + unfold best_step, better. destruct (sgt (ev_score e) (fst b)) eqn:G; cbn [orb fst snd].
      * (* e is strictly better than everything before *)
        exists tr, e, []. repeat split. intros e' Hin. specialize (Hmax e' Hin).
        destruct (is_nan (ev_score e')) eqn:N; [right; reflexivity|left].
        assert (Hne : ev_score e' <> SNaN) by (destruct (ev_score e'); cbn in N; congruence).
        destruct (sgt_total _ _ Hne Hn Hmax) as [L|L]; [exact (sgt_trans _ _ _ G L)|rewrite L; exact G].
      * destruct (snd b) as [p|] eqn:Sb; cbn [is_none andb].
        -- (* a best position exists already: unchanged *)
           rewrite Sb. destruct Hpos as (tr1 & e0 & tr2 & -> & A & B & D).
           exists tr1, e0, (tr2 ++ [e]). rewrite <- app_assoc. repeat split; auto.
        -- destruct Hpos as [Hb Hall]. destruct (seqb (ev_score e) (fst b)) eqn:T; cbn [fst snd].
           ++ (* the first score tying -inf provides the position *)
              exists tr, e, []. repeat split. intros e' Hin. right. exact (Hall e' Hin).
           ++ rewrite Sb. split; [exact Hb|]. apply forall_snoc; [exact Hall|].
              rewrite Hb in G, T. apply not_gt_not_eq_neginf; assumption.
Qed.

Section C05.
  Context {OP : optimizer}.
  Variable sp : space.
  Variable f : nat -> values -> result.
  Variable clk : nat -> Z.

  (* row i of this call <-> event i: (position, decoded values, score) *)
  Definition C05_statement : Prop :=
    forall (s s' : drv OP) (c : call), 0 <= c_n_iter c ->
      search sp f clk s c = Ok s' ->
      exists tr : list ev,
        d_rows s' = d_rows s ++ map ev_row tr /\ d_pos_l s' = d_pos_l s ++ map ev_pos tr /\
        Forall (fun e => position2value sp (ev_pos e) = Ok (ev_val e)) tr /\
        (* best_score: never NaN, no row of this call is strictly better *)
        d_best_score s' <> SNaN /\
        (forall e, In e tr -> sgt (ev_score e) (d_best_score s') = false) /\
        (* best_value: the parameters of the first row attaining best_score; None only if every row is NaN *)
        match d_best_value s' with
        | Some v => exists tr1 e tr2, tr = tr1 ++ e :: tr2 /\ ev_val e = v /\ ev_score e = d_best_score s' /\
                      (forall e', In e' tr1 -> sgt (d_best_score s') (ev_score e') = true \/ is_nan (ev_score e') = true)
        | None => d_best_score s' = SNInf /\ (forall e, In e tr -> is_nan (ev_score e) = true)
        end.

  Lemma ct_best_event {s c m tr sE s'} (Tr : @call_trace OP sp f clk s c m tr sE s') :
    match d_best_value s' with
    | Some v => exists tr1 e tr2, tr = tr1 ++ e :: tr2 /\ ev_val e = v /\ ev_score e = d_best_score s' /\
                  (forall e', In e' tr1 -> sgt (d_best_score s') (ev_score e') = true \/ is_nan (ev_score e') = true)
    | None => d_best_score s' = SNInf /\ (forall e, In e tr -> is_nan (ev_score e) = true)
    end.
  Proof.
    destruct (best_fold_spec tr) as (_ & _ & Bpos). pose proof (ct_bestv Tr) as Bv. rewrite <- (ct_best Tr) in Bpos.
    destruct (snd (fold_left best_step tr (SNInf, None))) as [p|].
    - destruct Bv as (v & Hv & ->). destruct Bpos as (tr1 & e & tr2 & Htr & A & B & D).
      exists tr1, e, tr2. repeat split; auto.
      (* the best position is e's, so its decoding is e's value vector *)
      pose proof (ct_p2v Tr) as P. rewrite Htr in P. apply Forall_app in P. destruct P as [_ P].
      apply Forall_inv in P. rewrite A, Hv in P. congruence.
    - rewrite Bv. exact Bpos.
  Qed.

  Theorem C05_holds : C05_statement.
  Proof.
    intros s s' c Hni Hs.
    destruct (search_trace s c s' Hni Hs) as (m & tr & sE & Tr).
    destruct (best_fold_spec tr) as (Bn & Bmax & _). rewrite <- (ct_best Tr) in Bn, Bmax.
    exists tr. split; [exact (ct_rows Tr)|]. split; [exact (ct_pos Tr)|]. split; [exact (ct_p2v Tr)|].
    split; [assumption|]. split; [assumption|exact (ct_best_event Tr)].
  Qed.

End C05.

Theorem lvl1_eq_lvl0 : forall b sc p k,
  pb_best (pbar_update_lvl1 b sc p k) = pb_best (pbar_update_lvl0 b sc p k) /\
  pb_pos (pbar_update_lvl1 b sc p k) = pb_pos (pbar_update_lvl0 b sc p k).
Proof.
  intros b sc p k. destruct (pbar_update_spec true b sc p k) as [z1 E1], (pbar_update_spec false b sc p k) as [z0 E0].
  rewrite E1, E0. destruct (better _ _ _); split; reflexivity.
Qed.

(* record of defect D13 (fixed in /repo): under the strict `>` test a run whose rows are all -inf kept
   best position None although best_score = -inf is attained by row 0 *)
Example strict_update_loses_neginf_position :
  pb_pos (new2best_strict pbar_init SNInf [0]) = None /\ pb_pos (new2best pbar_init SNInf [0]) = Some [0].
Proof. split; reflexivity. Qed.
