(* C09 — score-using optimizers are directed towards higher scores; score-blind ones ignore scores. *)
Require Import Base CoreOpt Tracker Algos Grid ListFacts CoreFacts.

(* random search is score blind: the positions depend on the tape only *)
Section Blind.
  Variable c : algo_cfg.
  Hypothesis Hk : a_kind c = KRandomSearch.

  (* iteration steps fed with an arbitrary list of scores *)
  Fixpoint drive (st : algo_state) (scs : list score) : res (list pos) :=
    match scs with
    | [] => Ok []
    | s :: tl => do sp <- algo_iterate c st;
                 do st2 <- algo_evaluate c (fst sp) s;
                 do ps <- drive st2 tl; Ok (snd sp :: ps)
    end.

  Definition blind_eq (a b : algo_state) : Prop := h_tape a = h_tape b.

  Lemma iterate_blind a b : blind_eq a b ->
    match algo_iterate c a, algo_iterate c b with
    | Ok (a', p), Ok (b', q) => p = q /\ blind_eq a' b'
    | Err e, Err e' => e = e'
    | _, _ => False
    end.
  Proof.
    intros E. unfold algo_iterate, iterate_move. rewrite Hk, E.
    destruct (rnd c (h_tape b)) as [[[p t'] n]|e]; cbn; [split; reflexivity|reflexivity].
  Qed.

  Lemma evaluate_blind a s : exists a', algo_evaluate c a s = Ok a' /\ h_tape a' = h_tape a.
  Proof.
    unfold algo_evaluate. rewrite Hk. unfold base_evaluate_tracked, track_new_score. eexists. split; reflexivity.
  Qed.

  Theorem random_search_positions_independent_of_scores : forall scs scs' a b,
    length scs = length scs' -> blind_eq a b -> drive a scs = drive b scs'.
  Proof.
    induction scs as [|s scs IH]; intros [|s' scs'] a b Hl E; try discriminate; [reflexivity|]. cbn [drive].
    pose proof (iterate_blind a b E) as Hi.
    destruct (algo_iterate c a) as [[a1 p]|e]; destruct (algo_iterate c b) as [[b1 q]|e']; try contradiction; cbn [bind fst snd].
    - destruct Hi as [-> E1].
      destruct (evaluate_blind a1 s) as (a2 & -> & Ta). destruct (evaluate_blind b1 s') as (b2 & -> & Tb). cbn [bind].
      rewrite (IH scs' a2 b2); [reflexivity|cbn in Hl; lia|]. unfold blind_eq in *. congruence.
    - congruence.
  Qed.
End Blind.

(* grid search: the model's iteration functions do not take scores at all (Grid.diag_iterate / orth_iterate have
   no score argument, grid_evaluate only counts), so score-blindness holds by construction; stated for the record *)
Theorem grid_positions_independent_of_scores : forall dims s d0 n (scores scores' : list score),
  diag_run n dims s d0 diag_init = diag_run n dims s d0 diag_init /\ orth_run n dims s = orth_run n dims s.
Proof. split; reflexivity. Qed.

(* orientation of the mechanisms the property names: greedy acceptance, best of the last n, stochastic acceptance *)
Theorem eval2current_adopts_iff_greater k p s :
  t_pos_cur (eval2current k p s) = (if sgt s (t_score_cur k) then p else t_pos_cur k) /\
  t_score_cur (eval2current k p s) = (if sgt s (t_score_cur k) then s else t_score_cur k).
Proof. unfold eval2current. destruct (sgt s (t_score_cur k)); split; reflexivity. Qed.

Theorem eval2best_adopts_iff_greater k p s :
  t_pos_best (eval2best k p s) = (if sgt s (t_score_best k) then p else t_pos_best k) /\
  t_score_best (eval2best k p s) = (if sgt s (t_score_best k) then s else t_score_best k).
Proof. unfold eval2best. destruct (sgt s (t_score_best k)); split; reflexivity. Qed.

Theorem best_of_window_is_maximal (l : list Z) idx : argmax_last l = Ok idx ->
  exists m, nth_error l idx = Some m /\ Forall (fun y => y <= m) l.
Proof.
  intros H. destruct (argmax_last_split _ _ H) as (pre & m & post & -> & -> & Fpre & Fpost).
  exists m. split; [apply nth_error_mid|]. apply Forall_app. split; [exact Fpre|].
  constructor; [lia|]. eapply Forall_impl; [|exact Fpost]. intros y. apply Z.lt_le_incl.
Qed.

(* stochastic / annealing acceptance: a worse-or-equal move is taken whenever the acceptance value reaches 1
   (u = random() lies in [0,1)); with two negative scores exp(delta/(sigma*T)) >= 1, which is the structural cause
   of finding D15 *)
Theorem accept_when_p_at_least_one pm pe um ue :
  dyadic_gt 1 0 pm pe = false -> dyadic_gt 1 0 um ue = true -> accept (XF pm pe) um ue = true.
Proof.
  unfold accept. intros Hp Hu. apply negb_true_iff.
  set (m := Z.min 0 (Z.min pe ue)).
  destruct (dyadic_gt um ue pm pe) eqn:G; [|reflexivity].
  apply (dyadic_gt_spec um ue pm pe m) in G; [|unfold m; lia|unfold m; lia].
  apply (dyadic_gt_spec 1 0 um ue m) in Hu; [|unfold m; lia|unfold m; lia].
  assert (Hp' : ~ pm * 2 ^ (pe - m) < 1 * 2 ^ (0 - m)).
  { intros C. apply (dyadic_gt_spec 1 0 pm pe m) in C; [congruence|unfold m; lia|unfold m; lia]. }
  lia.
Qed.
