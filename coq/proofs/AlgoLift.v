(* AlgoLift.v — lifting optimizer contracts through search(): what the rows, pos_l and best of a whole call
   look like when the optimizer honours a contract (the two lifts), and their instances for the hill-climbing family end to
   end. *)
Require Import Base Converter ConverterFacts CoreOpt Tracker Algos Driver DriverFacts CoreFacts AlgoFacts C05_proofs.
From RecordUpdate Require Import RecordSet.
Import RecordSetNotations.

Section Lift.
  Context {OP : optimizer}.
  Variable sp : space.
  Variable f : nat -> values -> result.
  Variable clk : nat -> Z.

  Theorem search_contract_lift (Inv : ost OP -> Prop) (Q : pos -> Prop) (s s' : drv OP) (c : call) :
    opt_contract Inv Q -> 0 <= c_n_iter c -> Inv (d_opt s) ->
    search sp f clk s c = Ok s' ->
    exists tr : list ev,
      d_pos_l s' = d_pos_l s ++ map ev_pos tr /\ d_rows s' = d_rows s ++ map ev_row tr /\
      Forall (fun e => Q (ev_pos e) /\ position2value sp (ev_pos e) = Ok (ev_val e)) tr /\
      Inv (d_opt s') /\
      match d_best_value s' with
      | Some v => exists e, In e tr /\ ev_val e = v
      | None => True
      end.
  Proof.
    intros C Hn Hi Hs. destruct (search_trace s c s' Hn Hs) as (m & tr & sE & Tr).
    destruct (ct_hist Tr _ [] (opt_contract_hist Inv Q C) (conj Hi (Forall_nil Q))) as [IE QE].
    cbn in QE. rewrite map_map, Forall_map in QE.
    exists tr. split; [exact (ct_pos Tr)|]. split; [exact (ct_rows Tr)|]. split; [|split; [exact IE|]].
    - pose proof (ct_p2v Tr) as P. rewrite Forall_forall in *. intros e He. split; [exact (QE e He)|exact (P e He)].
    - pose proof (ct_best_event sp f clk Tr) as B. destruct (d_best_value s') as [v|]; [|exact I].
      destruct B as (tr1 & e & tr2 & -> & Hv & _). exists e. split; [apply in_elt|exact Hv].
  Qed.

  Theorem search_hist_lift (J : ost OP -> list (pos * score) -> Prop) (s s' : drv OP) (c : call) H0 :
    opt_hist_contract J -> 0 <= c_n_iter c -> J (d_opt s) H0 ->
    search sp f clk s c = Ok s' ->
    exists tr : list ev, d_pos_l s' = d_pos_l s ++ map ev_pos tr /\ d_score_l s' = d_score_l s ++ map ev_score tr /\
      J (d_opt s') (H0 ++ map ev_pair tr).
  Proof.
    intros C Hn Hj Hs. destruct (search_trace s c s' Hn Hs) as (m & tr & sE & Tr).
    exists tr. split; [exact (ct_pos Tr)|]. split; [exact (ct_score Tr)|exact (ct_hist Tr J H0 C Hj)].
  Qed.
End Lift.

Section Family.
  Variable c : algo_cfg.
  Variable f : nat -> values -> result.
  Variable clk : nat -> Z.
  Hypothesis Hdims : dims_ok (a_sp c).

  (* C01 + C02: every point a search() of an optimizer of the family (Algos.algo_kind) evaluates is a genuine, feasible point of
     the space, decoded without index wrapping — for every tape of draws (no NaN samples), every objective
     (also non-finite scores), every hyper-parameter setting, every call history *)
  Theorem family_points_genuine_and_feasible (s s' : drv (algo_optimizer c)) (cl : call) :
    0 <= c_n_iter cl -> algo_inv c (d_opt s) ->
    search (a_sp c) f clk s cl = Ok s' ->
    exists tr : list ev,
      d_pos_l s' = d_pos_l s ++ map ev_pos tr /\ d_rows s' = d_rows s ++ map ev_row tr /\
      Forall (fun e => in_box (a_sp c) (ev_pos e) /\ feasible (a_sp c) (a_cons c) (ev_pos e) = Ok true /\
                       position2value (a_sp c) (ev_pos e) = Ok (ev_val e) /\ a_cons c (ev_val e) = true) tr /\
      algo_inv c (d_opt s') /\
      match d_best_value s' with Some v => a_cons c v = true | None => True end.
  Proof.
    intros Hn Hi Hs.
    destruct (@search_contract_lift (algo_optimizer c) (a_sp c) f clk (algo_inv c) (emit_ok (a_sp c) (a_cons c)) s s' cl (algo_contract c Hdims) Hn Hi Hs)
      as (tr & A & B & C & D & E).
    exists tr. split; [assumption|]. split; [assumption|]. split; [|split; [assumption|]].
    - eapply Forall_impl; [|exact C]. intros e [Hq Hp]. pose proof (emit_ok_cons _ _ _ _ Hq Hp). destruct Hq. auto.
    - destruct (d_best_value s') as [v|]; [|exact I]. destruct E as (e & He & <-).
      rewrite Forall_forall in C. destruct (C e He) as [Hq Hp]. exact (emit_ok_cons _ _ _ _ Hq Hp).
  Qed.

  (* C19: after any call, the tracked current / best pairs and the valid lists consist of pairs that were
     really evaluated (position with ITS score) *)
  Theorem family_tracked_pairs_grounded (s s' : drv (algo_optimizer c)) (cl : call) H0 :
    0 <= c_n_iter cl -> grounded (h_trk (d_opt s)) H0 ->
    search (a_sp c) f clk s cl = Ok s' ->
    exists tr : list ev, d_pos_l s' = d_pos_l s ++ map ev_pos tr /\ d_score_l s' = d_score_l s ++ map ev_score tr /\
      grounded (h_trk (d_opt s')) (H0 ++ map ev_pair tr).
  Proof. intros Hn G Hs. exact (@search_hist_lift (algo_optimizer c) (a_sp c) f clk (algo_grounded) s s' cl H0 (algo_hist_contract c) Hn G Hs). Qed.
End Family.
