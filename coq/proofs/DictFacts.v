(* DictFacts.v — Converter.v's zip, and its Python dict (an insertion-ordered association list read through a
   boolean key test) for any key type whose test decides equality.  The model's key types: Z with
   Z.eqb_spec (parameter names, and the facades' keyword names) and pos with pos_eqb_spec (memory keys). *)
Require Import Base BaseFacts Converter.

(* zip is the standard library's combine, a Fixpoint of its own that does not convert with it *)
Lemma zip_combine {A B} (a : list A) (b : list B) : zip a b = combine a b.
Proof. revert b. induction a as [|x a IH]; intros [|y b]; cbn; [reflexivity..|]. rewrite IH. reflexivity. Qed.

Lemma zip_fst_snd {A B} (d : list (A * B)) : zip (map fst d) (map snd d) = d.
Proof. induction d as [|[a b] d IH]; cbn; [reflexivity|]. rewrite IH. reflexivity. Qed.

Lemma zip_unzip {A B} (a : list A) (b : list B) : length a = length b -> map fst (zip a b) = a /\ map snd (zip a b) = b.
Proof.
  revert b. induction a as [|x a IH]; intros [|y b] H; cbn in *; try discriminate; [split; reflexivity|].
  destruct (IH b) as [-> ->]; [lia|]. split; reflexivity.
Qed.

Lemma zip_length {A B} (a : list A) (b : list B) : length a = length b -> length (zip a b) = length a.
Proof. intros H. rewrite <- (proj1 (zip_unzip a b H)) at 2. symmetry. apply map_length. Qed.

Lemma Forall2_zip {A B} (R : A -> B -> Prop) a b :
  length a = length b -> (forall x y, In (x, y) (zip a b) -> R x y) -> Forall2 R a b.
Proof.
  revert b. induction a as [|x a IH]; intros [|y b] Hl H; cbn in *; try discriminate; constructor; [auto|].
  apply IH; [lia|auto].
Qed.

Section Dict.
  Context {K V : Type} {keqb : K -> K -> bool}.
  Notation dget := (@dict_get K V keqb).
  Notation dset := (@dict_set K V keqb).

  Lemma dict_get_app k d1 d2 : dget k (d1 ++ d2) = match dget k d1 with Some v => Some v | None => dget k d2 end.
  Proof. induction d1 as [|[k' v'] d IH]; cbn; [reflexivity|]. destruct (keqb k k'); [reflexivity|apply IH]. Qed.

  Lemma dict_set_absent k v d : dget k d = None -> dset k v d = d ++ [(k, v)].
  Proof.
    induction d as [|[k' v'] d IH]; cbn; [reflexivity|]. destruct (keqb k k'); [discriminate|].
    intros H. rewrite IH by assumption. reflexivity.
  Qed.

  Lemma dict_mem_get k (d : list (K * V)) :
    dict_mem keqb k d = match dget k d with Some _ => true | None => false end.
  Proof. reflexivity. Qed.

  Context (keqb_spec : forall a b, reflect (a = b) (keqb a b)).

  Lemma dict_get_in k v d : dget k d = Some v -> In (k, v) d.
  Proof.
    induction d as [|[k' v'] d IH]; cbn; [discriminate|]. destruct (keqb_spec k k') as [<-|_].
    - intros [= ->]. left. reflexivity.
    - intros H. right. apply IH. assumption.
  Qed.

  Lemma dict_get_none k d : dget k d = None <-> ~ In k (map fst d).
  Proof.
    induction d as [|[k' v'] d IH]; cbn; [tauto|]. destruct (keqb_spec k k') as [<-|Hne].
    - split; [discriminate|]. intros H. exfalso. apply H. left. reflexivity.
    - rewrite IH. split; [intros H [E|Hin]; [congruence|contradiction]|tauto].
  Qed.

  Lemma dict_in_get k v d : NoDup (map fst d) -> In (k, v) d -> dget k d = Some v.
  Proof.
    induction d as [|[k' v'] d IH]; cbn; intros Hn Hin; [contradiction|]. inversion Hn as [|? ? Hk' Hn']; subst.
    destruct (keqb_spec k k') as [<-|Hne].
    - destruct Hin as [[= ->]|Hin]; [reflexivity|]. exfalso. apply Hk'. exact (in_map fst _ _ Hin).
    - destruct Hin as [[= E _]|Hin]; [congruence|auto].
  Qed.

  Lemma dict_get_same_items d d' k : NoDup (map fst d) -> NoDup (map fst d') -> (forall x, In x d <-> In x d') ->
    dget k d = dget k d'.
  Proof.
    intros Hn Hn' Hi. destruct (dget k d) as [v|] eqn:G.
    - symmetry. apply dict_in_get; [assumption|]. apply Hi. apply dict_get_in. assumption.
    - destruct (dget k d') as [v'|] eqn:G'; [|reflexivity].
      apply dict_get_in, Hi, (dict_in_get _ _ _ Hn) in G'. congruence.
  Qed.

  Lemma dict_get_set k0 k v d : dget k0 (dset k v d) = if keqb k0 k then Some v else dget k0 d.
  Proof.
    induction d as [|[k' v'] d IH]; cbn; [reflexivity|].
    destruct (keqb_spec k k') as [<-|Hne]; cbn; [destruct (keqb k0 k); reflexivity|].
    rewrite IH. destruct (keqb_spec k0 k') as [->|_]; [|reflexivity]. destruct (keqb_spec k' k); [congruence|reflexivity].
  Qed.

  Lemma dict_get_set_same k v d : dget k (dset k v d) = Some v.
  Proof. rewrite dict_get_set. destruct (keqb_spec k k); [reflexivity|congruence]. Qed.

  Lemma dict_get_set_other k0 k v d : k0 <> k -> dget k0 (dset k v d) = dget k0 d.
  Proof. intros Hne. rewrite dict_get_set. destruct (keqb_spec k0 k); [congruence|reflexivity]. Qed.

  Lemma dict_update_get d upd k :
    dget k (dict_update keqb d upd) = match dget k (rev upd) with Some x => Some x | None => dget k d end.
  Proof.
    unfold dict_update. revert d. induction upd as [|[k' v] upd IH]; intros d; cbn; [reflexivity|].
    rewrite IH, dict_get_app. destruct (dget k (rev upd)); [reflexivity|]. cbn. rewrite dict_get_set. destruct (keqb k k'); reflexivity.
  Qed.

  Lemma dict_update_fresh (d upd : list (K * V)) : NoDup (map fst (d ++ upd)) -> dict_update keqb d upd = d ++ upd.
  Proof.
    unfold dict_update. revert d. induction upd as [|[k v] upd IH]; intros d Hn; cbn; [rewrite app_nil_r; reflexivity|].
    rewrite dict_set_absent.
    - rewrite IH; rewrite <- app_assoc; [reflexivity|exact Hn].
    - apply dict_get_none. rewrite map_app in Hn. apply NoDup_remove_2 in Hn. intros Hin. apply Hn, in_or_app. left. exact Hin.
  Qed.

  (* {k: d[k] for k in ks} *)
  Lemma dict_select e ks d d' :
    map_res (fun k => match dget k d with Some v => Ok (k, v) | None => Err e end) ks = Ok d' ->
    map fst d' = ks /\ forall k, In k ks -> dget k d' = dget k d.
  Proof.
    revert d'. induction ks as [|k0 ks IH]; intros d' H; cbn in H; [injection H as <-; split; [reflexivity|intros k []]|].
    apply bind_ok in H. destruct H as (kv & Hkv & H). apply bind_ok in H. destruct H as (d'' & Hd & [= <-]).
    destruct (dget k0 d) as [v0|] eqn:G; [injection Hkv as <-|discriminate]. destruct (IH d'' Hd) as [Hf Hg].
    cbn. split; [f_equal; exact Hf|]. intros k Hk. destruct (keqb_spec k k0) as [->|Hne]; [symmetry; exact G|].
    apply Hg. destruct Hk as [->|Hk]; [congruence|exact Hk].
  Qed.

  Lemma dict_of_pairs_get l k : dget k (dict_of_pairs keqb l) = dget k (rev l).
  Proof. change (dict_of_pairs keqb l) with (dict_update keqb [] l). rewrite dict_update_get. destruct (dget k (rev l)); reflexivity. Qed.

  Lemma dict_of_pairs_nodup (l : list (K * V)) : NoDup (map fst l) -> dict_of_pairs keqb l = l.
  Proof. exact (dict_update_fresh [] l). Qed.
End Dict.
