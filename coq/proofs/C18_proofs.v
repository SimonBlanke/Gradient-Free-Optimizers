(* C18 — the step API equals search(); the public facades forward every constructor parameter. *)
Require Import Base StopRun Converter Driver DriverFacts Facade ListFacts DictFacts.

(* without stopping criteria search() is init_search, then `steps` (the loop without its checks), then finish_search *)
Section Steps.
  Context {OP : optimizer}.
  Variable sp : space.
  Variable f : nat -> values -> result.
  Variable clk : nat -> Z.

  Lemma search_step_call (s s' : drv OP) k : search_step sp f clk s k = Ok s' -> d_call s' = d_call s.
  Proof.
    unfold search_step. intros H.
    step_bind H as s1 E1. step_bind H as s2 E2.
    assert (C1 : d_call s1 = d_call s).
    { destruct (k <? d_n_inits_norm s); [|inv_ok E1; reflexivity].
      apply initialization_spec in E1. destruct E1 as (p & v & r & R & _). exact (sr_call _ _ _ _ _ _ _ _ _ _ R). }
    assert (C2 : d_call s2 = d_call s1).
    { destruct (k =? d_n_init_search s1); [|inv_ok E2; reflexivity]. step_bind E2 as o E. inv_ok E2. reflexivity. }
    destruct (_ && _).
    - apply iteration_spec in H. destruct H as (p & v & r & R & _). rewrite (sr_call _ _ _ _ _ _ _ _ _ _ R). congruence.
    - inv_ok H. congruence.
  Qed.

  Lemma stop_check_no_stop (s : drv OP) : c_stop (d_call s) = no_stop -> stop_check clk s = Ok (false, s).
  Proof. intros H. unfold stop_check, check_reads_clock, check. rewrite H. reflexivity. Qed.

  Lemma loop_eq_steps : forall todo k (s : drv OP), c_stop (d_call s) = no_stop ->
    loop sp f clk todo k s = steps sp f clk todo k s.
  Proof.
    induction todo as [|todo IH]; intros k s Hn; [reflexivity|]. cbn [loop steps].
    destruct (search_step sp f clk s k) as [s1|e] eqn:E; cbn [bind]; [|reflexivity].
    assert (Hn1 : c_stop (d_call s1) = no_stop) by (rewrite (search_step_call _ _ _ E); exact Hn).
    rewrite (stop_check_no_stop s1 Hn1). apply IH. exact Hn1.
  Qed.

  Theorem search_eq_steps (s : drv OP) (c : call) : c_stop c = no_stop ->
    search sp f clk s c = search_by_steps sp f clk s c.
  Proof.
    intros Hn. unfold search, search_by_steps.
    destruct (init_search sp clk s c) as [s0|e] eqn:E; cbn [bind]; [|reflexivity].
    rewrite loop_eq_steps; [reflexivity|].
    destruct (init_search_spec _ _ _ _ _ E) as (m & _ & ->). exact Hn.
  Qed.
End Steps.

Lemma zmem_in x l : zmem x l = true <-> In x l.
Proof. unfold zmem. rewrite existsb_exists. split; [intros (y & Hy & E); apply Z.eqb_eq in E; subst; assumption|intros H; exists x; split; [assumption|apply Z.eqb_refl]]. Qed.

Lemma nodupb_NoDup l : nodupb l = true -> NoDup l.
Proof.
  induction l as [|x l IH]; cbn; intros H; constructor.
  - apply andb_prop in H. destruct H as [H _]. intros Hin. apply zmem_in in Hin. rewrite Hin in H. discriminate.
  - apply IH. apply andb_prop in H. tauto.
Qed.

Lemma dget_some_in {V} (s : list (Z * V)) p v : dict_get Z.eqb p s = Some v -> In p (map fst s).
Proof. intros H. exact (in_map fst _ _ (dict_get_in Z.eqb_spec _ _ _ H)). Qed.

Lemma bind_param_fst kw pd pv : bind_param kw pd = Ok pv -> fst pv = fst pd.
Proof. unfold bind_param. destruct (dict_get Z.eqb (fst pd) kw); [|destruct (snd pd)]; intros [= <-]; reflexivity. Qed.

Lemma bind_param_err kw pd e : bind_param kw pd = Err e -> e = TypeError.
Proof. unfold bind_param. destruct (dict_get Z.eqb (fst pd) kw); [discriminate|]. destruct (snd pd); [discriminate|congruence]. Qed.

Lemma bind_sig_known s kw : (forall k, In k (map fst kw) -> In k (map fst s)) -> bind_sig s kw = map_res (bind_param kw) s.
Proof.
  intros H. unfold bind_sig. replace (forallb _ _) with true; [reflexivity|].
  symmetry. apply forallb_forall. intros k Hk. apply zmem_in, H, Hk.
Qed.

(* A class with parameters P whose __init__ passes each of them on under its own name (F) to a backend whose
   parameters B include P, defaults and all, gives the backend the environment a direct call with the same
   keywords gives it.  A backend parameter gets the same binding on both sides: if the facade exposes it, the
   facade bound it as the backend would and forwards that; if not, no keyword can name it on either side. *)
Theorem forward_sound (P B : sig) (F : list (Z * Z)) (kw : kwargs) :
  NoDup (map fst P) -> NoDup (map fst B) -> incl P B ->
  (forall ke, In ke F -> fst ke = snd ke) -> (forall k, In k (map fst F) <-> In k (map fst P)) ->
  (forall k, In k (map fst kw) -> In k (map fst P)) ->
  (do ef <- bind_sig P kw;
   do kw' <- map_res (fun ke => match dict_get Z.eqb (snd ke) ef with
                                | Some v => Ok (fst ke, v) | None => Err Unspecified end) F;
   bind_sig B kw') = bind_sig B kw.
Proof.
  intros HndP HndB HPB Hown HF Hkeys.
  pose proof (incl_map fst HPB) as HPBn.
  rewrite (bind_sig_known P kw Hkeys), (bind_sig_known B kw) by auto.
  destruct (map_res (bind_param kw) P) as [ef|e] eqn:EP; cbn [bind].
  2:{ (* a required facade argument is missing: the backend requires it too *)
      destruct (map_res_err _ _ _ EP) as (pd & Hpd & He). rewrite (bind_param_err _ _ _ He) in *.
      destruct (map_res (bind_param kw) B) as [eb|e'] eqn:EB.
      - destruct (map_res_ok_all _ _ _ EB pd (HPB pd Hpd)) as (y & Hy & _). congruence.
      - destruct (map_res_err _ _ _ EB) as (pd' & _ & He'). rewrite (bind_param_err _ _ _ He'). reflexivity. }
  (* the facade's environment binds exactly its parameters, each as kw binds it *)
  assert (Hfst : map fst ef = map fst P) by exact (map_res_ok_map _ _ _ _ _ (bind_param_fst kw) EP).
  assert (Hef : forall pd, In pd P -> bind_param ef pd = bind_param kw pd).
  { intros pd Hpd. destruct (map_res_ok_all _ _ _ EP pd Hpd) as ([p v] & Hb & Hin). rewrite Hb.
    apply bind_param_fst in Hb. cbn in Hb. subst p. unfold bind_param.
    rewrite (dict_in_get Z.eqb_spec (fst pd) v ef) by (rewrite ?Hfst; assumption). reflexivity. }
  (* the forwarded keywords are that environment read at the names of F *)
  destruct (map_res _ F) as [kw'|e] eqn:EF; cbn [bind].
  2:{ exfalso. destruct (map_res_err _ _ _ EF) as (ke & Hke & He). rewrite <- (Hown ke Hke) in He.
      destruct (dict_get Z.eqb (fst ke) ef) eqn:G; [discriminate|]. apply (dict_get_none Z.eqb_spec) in G.
      apply G. rewrite Hfst. apply HF, in_map, Hke. }
  destruct (dict_select Z.eqb_spec Unspecified (map fst F) ef kw') as [Hfst' Hget].
  { rewrite map_res_map, <- EF. apply map_res_ext_in. intros ke Hke. rewrite <- (Hown ke Hke). reflexivity. }
  rewrite (bind_sig_known B kw') by (intros k Hk; rewrite Hfst' in Hk; apply HPBn, HF, Hk).
  apply map_res_ext_in. intros [b d] HinB. destruct (in_dec Z.eq_dec b (map fst P)) as [HbP|HbP].
  - (* a parameter the facade exposes: with the same default, as B has one entry per name *)
    assert (HinP : In (b, d) P).
    { apply in_map_iff in HbP. destruct HbP as ([b' d'] & Hb' & Hin'). cbn in Hb'. subst b'.
      pose proof (dict_in_get Z.eqb_spec b d' B HndB (HPB _ Hin')) as G.
      rewrite (dict_in_get Z.eqb_spec b d B HndB HinB) in G. congruence. }
    rewrite <- (Hef _ HinP). unfold bind_param. rewrite Hget by (apply HF, HbP). reflexivity.
  - (* a parameter it does not expose: its default on both sides *)
    unfold bind_param. cbn [fst].
    rewrite (proj2 (dict_get_none Z.eqb_spec b kw')) by (rewrite Hfst'; intros H; apply HbP, HF, H).
    rewrite (proj2 (dict_get_none Z.eqb_spec b kw)) by (intros H; apply HbP, Hkeys, H). reflexivity.
Qed.

(* What forward_sound needs of Facade.well_forwarded, whose nine conjuncts are taken apart here and nowhere else.  Three of them
   are not needed for the equality: fa_shape_ok, that the forwarded keywords are pairwise distinct, and that the backend
   parameters the facade does not expose have defaults (without a default the call fails on both sides alike). *)
Lemma well_forwarded_spec fa : well_forwarded fa = true ->
  NoDup (map fst (fa_params fa)) /\ NoDup (map fst (fa_backend fa)) /\ incl (fa_params fa) (fa_backend fa) /\
  (forall ke, In ke (fa_forward fa) -> fst ke = snd ke) /\
  (forall k, In k (map fst (fa_forward fa)) <-> In k (map fst (fa_params fa))).
Proof.
  intros W. unfold well_forwarded in W. apply andb_prop in W.
  destruct W as [[[[[[[[_ HndP]%andb_prop HndB]%andb_prop Hown]%andb_prop _]%andb_prop Hfin]%andb_prop Hcover]%andb_prop Hdef]%andb_prop _].
  rewrite forallb_forall in Hdef, Hcover, Hfin, Hown.
  split; [apply nodupb_NoDup, HndP|]. split; [apply nodupb_NoDup, HndB|]. split; [|split].
  - intros [p d] Hin. specialize (Hdef (p, d) Hin). cbn in Hdef. unfold default_of in Hdef.
    destruct (dict_get Z.eqb p (fa_backend fa)) as [d'|] eqn:G; [|discriminate]. apply (dict_get_in Z.eqb_spec) in G.
    replace d with d'; [exact G|]. destruct d', d; cbn in Hdef; try discriminate; [|reflexivity].
    apply Z.eqb_eq in Hdef. congruence.
  - intros ke Hke. apply Z.eqb_eq, Hown, Hke.
  - intros k. split; intros Hk; [|apply zmem_in, Hcover, Hk].
    apply in_map_iff in Hk. destruct Hk as (ke & <- & Hke). apply zmem_in, Hfin, Hke.
Qed.

Definition C18_forward_statement : Prop :=
  forall (fa : facade) (kw : kwargs),
    well_forwarded fa = true ->
    (forall k, In k (map fst kw) -> In k (map fst (fa_params fa))) ->     (* keywords of the facade *)
    call_facade fa kw = call_backend fa kw.

Theorem C18_forward_holds : C18_forward_statement.
Proof.
  intros fa kw W Hkeys. destruct (well_forwarded_spec fa W) as (HndP & HndB & HPB & Hown & HF).
  exact (forward_sound _ _ _ kw HndP HndB HPB Hown HF Hkeys).
Qed.
