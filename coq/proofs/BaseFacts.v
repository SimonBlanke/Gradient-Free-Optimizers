(* BaseFacts.v — lemmas of Base.v's own vocabulary that are not about lists (those are in ListFacts.v).
   The error monad: two computations related, both failing alike or both succeeding with related values (res_rel), and the
   one-sided case where the second is the image of the first under an abstraction function (tied); each with its rule for
   `bind`, so that a statement about two programs is proved piece by piece.  Then zlen, and the order of scores.
   Two more basics of the error monad are in the files that first needed them: res_bind_ok in DriverTie.v, rmap in SearchTie.v. *)
Require Import Base.

Lemma bind_ok {A B} (r : res A) (k : A -> res B) b : bind r k = Ok b <-> exists a, r = Ok a /\ k a = Ok b.
Proof. destruct r as [a|e]; cbn; split; [eauto|intros (a' & [= <-] & H); exact H|discriminate|intros (a' & [=] & _)]. Qed.

Lemma ok_inj {A} (a b : A) : Ok a = Ok b -> a = b.
Proof. intros [= ->]. reflexivity. Qed.

Lemma bind_assoc {A B C} (r : res A) (k : A -> res B) (h : B -> res C) : bind (bind r k) h = bind r (fun x => bind (k x) h).
Proof. destruct r; reflexivity. Qed.

Lemma bind_ret {A} (r : res A) : (do x <- r; Ok x) = r.
Proof. destruct r; reflexivity. Qed.

(* `do (a, b) <- r; Ok (a, b)`: how the translators write a call whose result is handed on *)
Lemma bind_ret_pair {A B} (r : res (A * B)) : (do (a, b) <- r; Ok (a, b)) = r.
Proof. destruct r as [[a b]|e]; reflexivity. Qed.

Definition res_rel {A B} (Q : A -> B -> Prop) (a : res A) (b : res B) : Prop :=
  match a, b with Ok x, Ok y => Q x y | Err e, Err e' => e = e' | _, _ => False end.

Lemma res_rel_bind {A B A' B'} (Q : A -> B -> Prop) (Q' : A' -> B' -> Prop) a b k k' :
  res_rel Q a b -> (forall x y, Q x y -> res_rel Q' (k x) (k' y)) -> res_rel Q' (bind a k) (bind b k').
Proof. destruct a, b; cbn; intros H K; try contradiction; [apply K|]; exact H. Qed.

Lemma res_rel_bind_eq {A A' B'} (Q' : A' -> B' -> Prop) (a b : res A) k k' :
  b = a -> (forall x, a = Ok x -> res_rel Q' (k x) (k' x)) -> res_rel Q' (bind a k) (bind b k').
Proof. intros ->. destruct a; cbn; intros K; [apply K|]; reflexivity. Qed.

Lemma res_rel_ok {A B} (Q : A -> B -> Prop) x b : res_rel Q (Ok x) b -> exists y, b = Ok y /\ Q x y.
Proof. destruct b as [y|e]; cbn; [eauto|contradiction]. Qed.

Definition tied {G M} (alpha : G -> M) (P : G -> Prop) (rg : res G) (rm : res M) : Prop :=
  match rg with Ok x => rm = Ok (alpha x) /\ P x | Err e => rm = Err e end.

Lemma tied_bind {G M G' M'} (alpha : G -> M) (P : G -> Prop) (beta : G' -> M') (Q : G' -> Prop) rg rm kg km :
  tied alpha P rg rm -> (forall x, P x -> tied beta Q (kg x) (km (alpha x))) -> tied beta Q (bind rg kg) (bind rm km).
Proof.
  destruct rg as [x|e]; cbn.
  - intros [-> HP] K. exact (K x HP).
  - intros -> _. reflexivity.
Qed.
Arguments tied_bind {G M G' M'} alpha P beta Q {rg rm kg km}.

Lemma tied_weaken {G M} (alpha : G -> M) (P Q : G -> Prop) rg rm :
  tied alpha P rg rm -> (forall x, P x -> Q x) -> tied alpha Q rg rm.
Proof. destruct rg as [x|e]; cbn; [|auto]. intros [E HP] K. exact (conj E (K x HP)). Qed.
Arguments tied_weaken {G M} alpha P {Q rg rm}.

Lemma zlen_nonneg {A} (l : list A) : 0 <= zlen l.
Proof. unfold zlen. lia. Qed.
Lemma zlen_app {A} (a b : list A) : zlen (a ++ b) = zlen a + zlen b.
Proof. unfold zlen. rewrite app_length. lia. Qed.
Lemma zlen_snoc {A} (l : list A) x : zlen (l ++ [x]) = zlen l + 1.
Proof. apply zlen_app. Qed.
Lemma zlen_map {A B} (g : A -> B) l : zlen (map g l) = zlen l.
Proof. unfold zlen. rewrite map_length. reflexivity. Qed.

Lemma sgt_irrefl a : sgt a a = false.
Proof. destruct a; cbn; try reflexivity. apply Z.ltb_irrefl. Qed.
Lemma sgt_trans a b c : sgt a b = true -> sgt b c = true -> sgt a c = true.
Proof. destruct a, b; cbn; try congruence; destruct c; cbn; try congruence; lia. Qed.
Lemma sgt_asym a b : sgt a b = true -> sgt b a = false.
Proof. destruct a, b; cbn; try congruence; lia. Qed.
Lemma sgt_total a b : a <> SNaN -> b <> SNaN -> sgt a b = false -> sgt b a = true \/ a = b.
Proof.
  destruct a, b; cbn; try congruence; auto. intros _ _ H.
  destruct (Z.eq_dec z z0); [right; congruence|left; lia].
Qed.
Lemma seqb_eq a b : seqb a b = true -> a = b.
Proof. destruct a, b; cbn; try congruence. intros H. f_equal. lia. Qed.
Lemma not_gt_not_eq_neginf x : sgt x SNInf = false -> seqb x SNInf = false -> is_nan x = true.
Proof. destruct x; cbn; congruence. Qed.

(* the running maximum `if sgt x b then x else b` (keeps b on a tie and on a NaN x): what new2best, eval2best
   and eval2current compute *)
Lemma sgt_upd a s : sgt a (if sgt s a then s else a) = false.
Proof. destruct (sgt s a) eqn:G; [exact (sgt_asym _ _ G)|apply sgt_irrefl]. Qed.
Lemma sgt_upd_self a s : sgt s (if sgt s a then s else a) = false.
Proof. destruct (sgt s a) eqn:G; [apply sgt_irrefl|exact G]. Qed.
Lemma sgt_upd_mono x a s : sgt x a = false -> sgt x (if sgt s a then s else a) = false.
Proof.
  intros H. destruct (sgt s a) eqn:G; [|exact H].
  destruct s, a; cbn in G; try discriminate; destruct x; cbn in *; try congruence; lia.
Qed.
Lemma sgt_upd_notnan b x : b <> SNaN -> (if sgt x b then x else b) <> SNaN.
Proof. intros Hb. destruct (sgt x b) eqn:G; [|exact Hb]. intros ->. discriminate. Qed.
Lemma sge_upd b x m : b <> SNaN -> sge (if sgt x b then x else b) m = sge b m || sge x m.
Proof.
  intros Hb. destruct b, x, m; cbn; rewrite ?orb_false_r, ?orb_true_r; try congruence; try reflexivity;
    destruct (Z.ltb_spec z z0); cbn; lia || reflexivity.
Qed.
