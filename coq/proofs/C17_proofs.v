(* C17 — model-based proposals maximise the acquisition over sound training data. *)
Require Import Base Smbo ListFacts.
From Coq Require Import Permutation.

(* one full driver step: the proposal is tracked, then its score *)
Definition smbo_step (s : smbo) (init : bool) (p : pos) (sc : score) : smbo :=
  let s1 := track_x s p in if init then smbo_evaluate_init s1 sc else smbo_evaluate s1 p sc.

Fixpoint smbo_run (s : smbo) (evs : list (bool * pos * score)) : smbo :=
  match evs with [] => s | (i, p, sc) :: tl => smbo_run (smbo_step s i p sc) tl end.

Definition finite_events (evs : list (bool * pos * score)) : list (pos * score) :=
  map (fun e => (snd (fst e), snd e)) (filter (fun e => is_finite (snd e)) evs).

Lemma smbo_step_xy s i p sc :
  sm_X (smbo_step s i p sc) = (if is_finite sc then sm_X s ++ [p] else sm_X s) /\
  sm_Y (smbo_step s i p sc) = (if is_finite sc then sm_Y s ++ [sc] else sm_Y s).
Proof.
  (* a non-finite score removes the X just appended: removelast_last *)
  unfold smbo_step, smbo_evaluate_init, smbo_evaluate, track_y, track_x.
  destruct i; cbn; [|destruct (sm_replacement s); cbn]; destruct (is_finite sc); cbn; rewrite ?removelast_last; split; reflexivity.
Qed.

(* the training set is what was there (the warm start) followed by the finite-scored evaluations, in order; of every state:
   each step appends to both lists or to neither *)
Theorem xy_aligned : forall evs s,
  sm_X (smbo_run s evs) = sm_X s ++ map fst (finite_events evs) /\
  sm_Y (smbo_run s evs) = sm_Y s ++ map snd (finite_events evs).
Proof.
  induction evs as [|[[i p] sc] evs IH]; intros s; cbn [smbo_run].
  - unfold finite_events. rewrite !app_nil_r. split; reflexivity.
  - destruct (smbo_step_xy s i p sc) as [Ex Ey], (IH (smbo_step s i p sc)) as [A B].
    rewrite A, B, Ex, Ey. unfold finite_events. cbn [filter snd].
    destruct (is_finite sc); cbn [map fst snd]; rewrite <- ?app_assoc; split; reflexivity.
Qed.

Theorem proposal_is_argmax comb acq i p : proposal_ok comb acq i p = true ->
  nth_error comb i = Some p /\ exists a, nth_error acq i = Some a /\ forall b, In b acq -> xr_gt b a = false.
Proof.
  unfold proposal_ok. destruct (nth_error comb i) as [q|] eqn:Eq; [|discriminate].
  destruct (nth_error acq i) as [a|] eqn:Ea; [|discriminate]. intros H.
  apply andb_prop in H. destruct H as [H Hall]. apply andb_prop in H. destruct H as [Hq _].
  apply pos_eqb_eq in Hq. subst q. split; [reflexivity|]. exists a. split; [reflexivity|].
  rewrite forallb_forall in Hall. intros b Hb. specialize (Hall b Hb). apply negb_true_iff in Hall. exact Hall.
Qed.

Lemma remove_position_not_in comb p : ~ In p (remove_position comb p).
Proof. unfold remove_position. intros H. apply filter_In in H. destruct H as [_ H]. rewrite pos_eqb_refl in H. discriminate. Qed.

Lemma remove_position_subset comb p q : In q (remove_position comb p) -> In q comb.
Proof. unfold remove_position. intros H. apply filter_In in H. tauto. Qed.

Lemma track_y_comb s sc : sm_comb (track_y s sc) = sm_comb s /\ sm_replacement (track_y s sc) = sm_replacement s.
Proof. unfold track_y. destruct (is_finite sc); split; reflexivity. Qed.

Lemma smbo_evaluate_removes s p sc : sm_replacement s = false ->
  sm_comb (smbo_evaluate s p sc) = remove_position (sm_comb s) p /\ sm_replacement (smbo_evaluate s p sc) = false.
Proof. intros Hr. unfold smbo_evaluate. rewrite Hr. apply track_y_comb. Qed.

Theorem no_repeat_without_replacement : forall evs s,
  sm_replacement s = false ->
  (forall e, In e evs -> fst (fst e) = false) ->                       (* iteration steps *)
  let s' := smbo_run s evs in
  sm_replacement s' = false /\
  (forall q, In q (sm_comb s') -> In q (sm_comb s)) /\
  (forall e, In e evs -> ~ In (snd (fst e)) (sm_comb s')).
Proof.
  induction evs as [|[[i p] sc] evs IH]; intros s Hr Hit; cbn [smbo_run].
  - split; [assumption|]. split; [auto|intros e []].
  - assert (Hi : i = false) by (apply (Hit (i, p, sc)); left; reflexivity). subst i.
    set (s1 := smbo_step s false p sc).
    destruct (smbo_evaluate_removes (track_x s p) p sc Hr) as [C1 R1]. change (smbo_evaluate (track_x s p) p sc) with s1 in C1, R1.
    change (sm_comb (track_x s p)) with (sm_comb s) in C1.
    destruct (IH s1 R1 ltac:(intros e He; apply Hit; right; assumption)) as (A & B & C).
    split; [exact A|]. split.
    + intros q Hq. apply B in Hq. rewrite C1 in Hq. eapply remove_position_subset; eauto.
    + intros e [<-|He]; [|apply C; assumption]. intros Hq. apply B in Hq. rewrite C1 in Hq. eapply remove_position_not_in; eauto.
Qed.

Lemma nat_mem_In x l : nat_mem x l = true <-> In x l.
Proof.
  induction l as [|y l IH]; cbn; [split; [discriminate|contradiction]|].
  rewrite orb_true_iff, IH, Nat.eqb_eq. split; intros [H|H]; auto.
Qed.
Lemma nodup_b_NoDup l : nodup_b l = true -> NoDup l.
Proof.
  induction l as [|x l IH]; cbn; [constructor|]. intros H. apply andb_prop in H. destruct H as [A B].
  constructor; [|apply IH; exact B]. intros Hin. apply nat_mem_In in Hin. rewrite Hin in A. discriminate.
Qed.

Lemma perm_of_range perm n : is_perm_of_range perm n = true -> Permutation perm (seq 0 n).
Proof.
  unfold is_perm_of_range. intros H. apply andb_prop in H. destruct H as [H C]. apply andb_prop in H. destruct H as [A B].
  apply Nat.eqb_eq in A. apply nodup_b_NoDup in B.
  apply NoDup_Permutation_bis; [exact B|rewrite seq_length; lia|].
  intros x Hx. apply in_seq. rewrite forallb_forall in C. specialize (C x Hx). apply Nat.ltb_lt in C. lia.
Qed.

Theorem tpe_split_partition {A} (xs : list A) (d : A) perm n_best :
  is_perm_of_range perm (length xs) = true -> (n_best <= length xs)%nat ->
  let '(ib, iw) := tpe_split perm n_best in
  Permutation (map (fun i => nth i xs d) iw ++ map (fun i => nth i xs d) ib) xs /\ length ib = n_best.
Proof.
  intros HP Hn. apply perm_of_range in HP. unfold tpe_split, last_n. split.
  - rewrite <- map_app, firstn_skipn, HP, seq_nth_map. reflexivity.
  - apply Permutation_length in HP. rewrite seq_length in HP. rewrite skipn_length. lia.
Qed.
