(* StopFacts.v — the running best of a trace and the first step reaching a threshold. *)
Require Import Base BaseFacts Driver DriverFacts.

(* the score component of the running best ignores the tie rule (a tie keeps the same score) *)
Lemma best_step_fst b e : fst (best_step b e) = if sgt (ev_score e) (fst b) then ev_score e else fst b.
Proof.
  unfold best_step, better. destruct (sgt (ev_score e) (fst b)) eqn:G; cbn; [reflexivity|].
  destruct (is_none (snd b) && seqb (ev_score e) (fst b)) eqn:T; [|reflexivity].
  apply andb_prop in T. destruct T as [_ T]. apply seqb_eq in T. cbn. exact T.
Qed.

Lemma fold_best_notnan (tr : list ev) b : fst b <> SNaN -> fst (fold_left best_step tr b) <> SNaN.
Proof.
  revert b. induction tr as [|e tr IH]; intros b Hb; cbn; [assumption|].
  apply IH. rewrite best_step_fst. apply sgt_upd_notnan. assumption.
Qed.

Lemma fold_best_sge (tr : list ev) b m : fst b <> SNaN ->
  sge (fst (fold_left best_step tr b)) m = sge (fst b) m || existsb (fun x => sge x m) (map ev_score tr).
Proof.
  revert b. induction tr as [|e tr IH]; intros b Hb; cbn; [rewrite orb_false_r; reflexivity|].
  rewrite IH.
  - rewrite best_step_fst, (sge_upd (fst b) (ev_score e) m Hb), orb_assoc. reflexivity.
  - rewrite best_step_fst. apply sgt_upd_notnan. assumption.
Qed.

Lemma best_reaches (tr : list ev) m : m <> SNInf ->
  sge (fst (fold_left best_step tr (SNInf, None))) m = existsb (fun x => sge x m) (map ev_score tr).
Proof. intros Hm. rewrite fold_best_sge by discriminate. destruct m; try reflexivity. congruence. Qed.

Fixpoint first_reach (m : score) (l : list score) : option nat :=
  match l with
  | [] => None
  | s :: tl => if sge s m then Some O else option_map S (first_reach m tl)
  end.

Lemma first_reach_none m l : first_reach m l = None <-> existsb (fun x => sge x m) l = false.
Proof.
  induction l as [|x l IH]; cbn; [tauto|]. destruct (sge x m); [split; discriminate|].
  destruct (first_reach m l); [|exact IH]. split; [discriminate|]. intros H. apply IH in H. discriminate.
Qed.

Lemma first_reach_last m l x : (forall y, In y l -> sge y m = false) -> sge x m = true ->
  first_reach m (l ++ [x]) = Some (length l).
Proof.
  induction l as [|y l IH]; intros H Hx; cbn; [rewrite Hx; reflexivity|].
  rewrite (H y), IH by auto using in_eq, in_cons. reflexivity.
Qed.

Lemma first_reach_some m l k : first_reach m l = Some k ->
  (k < length l)%nat /\ existsb (fun x => sge x m) (firstn (S k) l) = true.
Proof.
  revert k. induction l as [|x l IH]; intros k; cbn [first_reach]; [discriminate|].
  cbn [firstn existsb length]. destruct (sge x m); [intros [= <-]; split; [lia|reflexivity]|].
  destruct (first_reach m l) as [k'|]; [|discriminate]. intros [= <-].
  destruct (IH k' eq_refl) as [A B]. split; [lia|exact B].
Qed.

Lemma first_reach_exact m l :
  (forall j, (0 < j < length l)%nat -> existsb (fun x => sge x m) (firstn j l) = false) ->
  match first_reach m l with
  | Some k => length l = S k
  | None => existsb (fun x => sge x m) l = false
  end.
Proof.
  intros H. destruct (first_reach m l) as [k|] eqn:E; [|exact (proj1 (first_reach_none m l) E)].
  destruct (first_reach_some m l k E) as [Hk Hx].
  destruct (Nat.eq_dec (length l) (S k)) as [|Hne]; [assumption|]. rewrite H in Hx by lia. discriminate.
Qed.

Lemma first_reach_some_in m l k : first_reach m l = Some k -> exists x, In x l /\ sge x m = true.
Proof.
  intros H. destruct (first_reach_some m l k H) as [_ E]. apply existsb_exists in E. destruct E as (x & Hx & Hs).
  exists x. split; [|exact Hs]. rewrite <- (firstn_skipn (S k) l). apply in_or_app. left. exact Hx.
Qed.
