(* AlgoFacts.v — the hill-climbing family and random search (Algos.v) satisfy the optimizer contracts:
   every emitted position is a genuine feasible point (C01, C02), an iteration step's constraint evaluations
   are counted and at least one (C08), the tracked pairs are grounded in real evaluations and one greedy
   update never lowers the score it keeps (C19) — for every NaN-free tape of draws and whatever (also
   non-finite) scores come back (C15). *)
Require Import Base BaseFacts CoreOpt Tracker Algos Driver DriverFacts CoreFacts ListFacts.
From RecordUpdate Require Import RecordSet.
Import RecordSetNotations.

Section AlgoFacts.
  Variable c : algo_cfg.
  Let sp := a_sp c.
  Let cons := a_cons c.
  Hypothesis Hdims : dims_ok sp.

  Definition algo_inv (st : algo_state) : Prop :=
    Forall (emit_ok sp cons) (h_inits st) /\ nan_free (h_tape st).

  Lemma iterate_move_ok st p t' n : nan_free (h_tape st) ->
    iterate_move c st = Ok (p, t', n) -> emit_ok sp cons p /\ is_suffix t' (h_tape st) /\ 0 < n.
  Proof.
    apply sound_move. unfold iterate_move, climb, rnd.
    (* KHill, KStochastic, KAnnealing, KRandAnneal, KSpiral are the decorated climb *)
    destruct (a_kind c); try (apply random_iteration_sound; [auto|intros t; apply move_climb_sound, Hdims]).
    - (* KRepulsing *) apply move_climb_sound, Hdims.
    - (* KRestart *) destruct (a_restart c =? 0); [apply sound_err|]. apply random_iteration_sound; [auto|].
      intros t. destruct (_ && _); [apply move_random_sound|apply move_climb_sound, Hdims].
    - (* KRandomSearch *) apply move_random_sound.
  Qed.

  Lemma algo_init_pos_spec st st1 p : algo_init_pos st = Ok (st1, p) ->
    nth_nowrap (h_inits st) (t_nth_init (h_trk st)) = Ok p /\
    h_trk st1 = track_new_pos (h_trk st) p /\ h_inits st1 = h_inits st /\ h_tape st1 = h_tape st.
  Proof.
    unfold algo_init_pos. destruct (nth_nowrap _ _) as [q|]; [|discriminate]. intros [= <- <-]. repeat split.
  Qed.

  Lemma algo_iterate_spec st st1 p : algo_iterate c st = Ok (st1, p) ->
    iterate_move c st = Ok (p, h_tape st1, h_ccalls st1) /\ h_trk st1 = track_new_pos (h_trk st) p /\ h_inits st1 = h_inits st.
  Proof.
    unfold algo_iterate. destruct (iterate_move c st) as [[[q t'] n]|]; [|discriminate]. intros [= <- <-]. repeat split.
  Qed.

  Lemma with_trk_spec (r : res trk) st st' : (do k' <- r; Ok (st <| h_trk := k' |>)) = Ok st' ->
    r = Ok (h_trk st') /\ h_inits st' = h_inits st /\ h_tape st' = h_tape st.
  Proof. destruct r as [k'|]; [|discriminate]. intros [= <-]. repeat split. Qed.

  Lemma algo_evaluate_init_spec st s st' : algo_evaluate_init st s = Ok st' ->
    evaluate_init (h_trk st) s = Ok (h_trk st') /\ h_inits st' = h_inits st /\ h_tape st' = h_tape st.
  Proof. apply with_trk_spec. Qed.

  (* evaluate, whatever the kind: the tracker goes through one of four tracked evaluations (the last is the stochastic
     transition, with b the outcome of the acceptance test), only that transition reads the tape, nothing touches the inits *)
  Definition evaluated (st : algo_state) (s : score) (st' : algo_state) : Prop :=
    h_inits st' = h_inits st /\ is_suffix (h_tape st') (h_tape st) /\
    (hc_evaluate (a_nn c) (h_trk st) s = Ok (h_trk st') \/ base_evaluate_tracked (h_trk st) s = Ok (h_trk st') \/
     spiral_evaluate (h_trk st) s = Ok (h_trk st') \/
     exists b : bool, track_new_score (fun k _ => Ok (if b then new2current k else k)) (h_trk st) s = Ok (h_trk st')).

  Lemma transition_body_spec t k s k' t' : transition_body t k s = Ok (k', t') ->
    is_suffix t' t /\ exists b : bool, k' = if b then new2current k else k.
  Proof.
    unfold transition_body. destruct t as [|d [|[| um ue | | |] t0]]; try discriminate. destruct (xreal_of_draw d) as [x|]; [|discriminate].
    intros [= <- <-]. split; [exact (is_suffix_app [d; DF um ue] t0)|]. exists (accept x um ue). reflexivity.
  Qed.

  Lemma algo_evaluate_spec st s st' : algo_evaluate c st s = Ok st' -> evaluated st s st'.
  Proof.
    assert (W : forall r, (do k' <- r; Ok (st <| h_trk := k' |>)) = Ok st' ->
                h_inits st' = h_inits st /\ is_suffix (h_tape st') (h_tape st) /\ r = Ok (h_trk st')).
    { intros r H. destruct (with_trk_spec r _ _ H) as (E & Ei & Et). rewrite Et. auto using is_suffix_refl. }
    assert (Hhc : (do k' <- hc_evaluate (a_nn c) (h_trk st) s; Ok (st <| h_trk := k' |>)) = Ok st' -> evaluated st s st').
    { intros H. destruct (W _ H) as (A & B & E). exact (conj A (conj B (or_introl E))). }
    (* KHill, KRepulsing, KRestart, KRandAnneal evaluate as the hill climber *)
    unfold algo_evaluate. destruct (a_kind c); try exact Hhc.
    (* KStochastic, KAnnealing: the acceptance step when the score is not better, the hill climber's evaluate otherwise *)
    1, 2: destruct (sle s _); [|exact Hhc]; intros H; apply bind_ok in H; destruct H as ([k1 t1] & E & [= <-]).
    1, 2: destruct (transition_body_spec _ _ _ _ _ E) as (Hs & b & ->); split; [reflexivity|]; split; [exact Hs|].
    1, 2: right; right; right; exists b; reflexivity.
    - (* KRandomSearch *) intros H. destruct (W _ H) as (A & B & E). exact (conj A (conj B (or_intror (or_introl E)))).
    - (* KSpiral *) intros H. destruct (W _ H) as (A & B & E). exact (conj A (conj B (or_intror (or_intror (or_introl E))))).
  Qed.

  Lemma algo_inv_frame st st' : h_inits st' = h_inits st -> is_suffix (h_tape st') (h_tape st) -> algo_inv st -> algo_inv st'.
  Proof. intros Ei Hs [Hi Hn]. split; [rewrite Ei; exact Hi|exact (nan_free_suffix _ _ Hs Hn)]. Qed.

  (* C01 + C02 for one step: every emitted position is a genuine feasible point, whatever the operation *)
  Theorem algo_contract : opt_contract (OP := algo_optimizer c) algo_inv (emit_ok sp cons).
  Proof.
    constructor; cbn [algo_optimizer o_init_pos o_iterate o_eval_init o_evaluate o_finish_init ost].
    - intros st st' p HI H. destruct (algo_init_pos_spec _ _ _ H) as (E & _ & Ei & Et). split.
      + apply (algo_inv_frame st); [exact Ei|rewrite Et; apply is_suffix_refl|exact HI].
      + destruct HI as [Hi _]. rewrite Forall_forall in Hi. exact (Hi p (nth_nowrap_in _ _ _ E)).
    - intros st st' p HI H. destruct (algo_iterate_spec _ _ _ H) as (E & _ & Ei).
      destruct (iterate_move_ok _ _ _ _ (proj2 HI) E) as (A & B & _). split; [exact (algo_inv_frame st st' Ei B HI)|exact A].
    - intros st sc st' HI H. destruct (algo_evaluate_init_spec _ _ _ H) as (_ & Ei & Et).
      apply (algo_inv_frame st); [exact Ei|rewrite Et; apply is_suffix_refl|exact HI].
    - intros st sc st' HI H. destruct (algo_evaluate_spec _ _ _ H) as (Ei & B & _). exact (algo_inv_frame st st' Ei B HI).
    - intros st st' Hi [= <-]. assumption.
  Qed.

  (* C08: the constraint evaluations of an iteration step are counted and at least one *)
  Theorem algo_iterate_counts st st' p : nan_free (h_tape st) -> algo_iterate c st = Ok (st', p) -> 0 < h_ccalls st'.
  Proof. intros Hn H. destruct (algo_iterate_spec _ _ _ H) as (E & _). apply (iterate_move_ok _ _ _ _ Hn E). Qed.
End AlgoFacts.

Lemma evaluate_init_nth_init k s k' : evaluate_init k s = Ok k' -> t_nth_init k' = t_nth_init k.
Proof.
  unfold evaluate_init, track_new_score, evaluate_init_body. intros H. injection H as <-.
  transitivity (t_nth_init (set_score_new k s)); [|unfold set_score_new; destruct (is_finite s); reflexivity].
  destruct (t_pos_best _); destruct (t_pos_cur _); reflexivity.
Qed.

(* C19.  H is the history of evaluated (position, score) pairs; a tracked pair whose position is still None (nothing adopted
   yet) needs no witness in H. *)
Definition pair_in (op : option pos) (s : score) (H : list (pos * score)) : Prop :=
  match op with None => True | Some p => In (p, s) H end.

Record grounded (k : trk) (H : list (pos * score)) : Prop := {
  g_cur  : pair_in (t_pos_cur k) (t_score_cur k) H;
  g_best : pair_in (t_pos_best k) (t_score_best k) H;
  g_valid : Forall (fun ps => pair_in (fst ps) (snd ps) H) (t_valid k)
}.

Lemma pair_in_mono op s H x : pair_in op s H -> pair_in op s (H ++ x).
Proof. destruct op; cbn; [intros; apply in_or_app; left; assumption|auto]. Qed.

Lemma grounded_mono k H x : grounded k H -> grounded k (H ++ x).
Proof.
  intros [A B C]. constructor; try (apply pair_in_mono; assumption).
  eapply Forall_impl; [|exact C]. intros ps. apply pair_in_mono.
Qed.

Lemma grounded_set_score k H p s : t_pos_new k = Some p -> grounded k H ->
  grounded (set_score_new k s) (H ++ [(p, s)]) /\ t_pos_new (set_score_new k s) = Some p /\ t_score_new (set_score_new k s) = s.
Proof.
  intros Hp G. apply (grounded_mono _ _ [(p, s)]) in G. destruct G as [A B C]. unfold set_score_new.
  destruct (is_finite s); cbn; (split; [|split; [assumption|reflexivity]]); constructor; cbn; auto.
  apply Forall_app. split; [assumption|]. constructor; [|constructor]. rewrite Hp. apply in_or_app. right. left. reflexivity.
Qed.

Lemma grounded_eval2 k H p s : pair_in p s H -> grounded k H -> grounded (eval2best (eval2current k p s) p s) H.
Proof.
  intros Hp [A B C]. unfold eval2best, eval2current.
  destruct (sgt s (t_score_cur k)); cbn; destruct (sgt s _); cbn; constructor; cbn; auto.
Qed.

Lemma grounded_base k H s : pair_in (t_pos_new k) s H -> grounded k H -> grounded (base_evaluate k s) H.
Proof.
  intros Hin [A B C]. unfold base_evaluate. destruct (t_pos_best k) eqn:Eb; constructor; cbn; auto. rewrite Eb. exact B.
Qed.

Lemma grounded_adopt_best k H p s : pair_in p s H -> grounded k H -> grounded (k <| t_pos_best := p |> <| t_score_best := s |>) H.
Proof. intros Hp [A B C]. constructor; assumption. Qed.
Lemma grounded_adopt_cur k H p s : pair_in p s H -> grounded k H -> grounded (k <| t_pos_cur := p |> <| t_score_cur := s |>) H.
Proof. intros Hp [A B C]. constructor; assumption. Qed.

Lemma grounded_track_new_pos k H p : grounded k H -> grounded (track_new_pos k p) H.
Proof. intros [A B C]. constructor; assumption. Qed.

(* a body of track_new_score keeps the tracker grounded if it does so once the new pair is in the history *)
Definition body_grounded (body : trk -> score -> res trk) : Prop :=
  forall k s k' H, pair_in (t_pos_new k) s H -> t_score_new k = s -> grounded k H -> body k s = Ok k' -> grounded k' H.

Lemma track_new_score_grounded body k H p s k' : body_grounded body -> t_pos_new k = Some p -> grounded k H ->
  track_new_score body k s = Ok k' -> grounded k' (H ++ [(p, s)]).
Proof.
  intros Hb Hp G Ht. unfold track_new_score in Ht.
  destruct (grounded_set_score k H p s Hp G) as (G1 & P1 & S1).
  destruct (body (set_score_new k s) s) as [k1|] eqn:E; cbn in Ht; [|discriminate]. injection Ht as <-.
  assert (G2 : grounded k1 (H ++ [(p, s)])).
  { apply (Hb (set_score_new k s) s); [rewrite P1; apply in_or_app; right; left; reflexivity|exact S1|exact G1|exact E]. }
  destruct G2. constructor; assumption.
Qed.

(* the pair adopted from the window of recent valid pairs is one of the valid pairs, which are in H *)
Lemma hc_body_grounded n : body_grounded (hc_evaluate_body n).
Proof.
  intros k s k' H Hin _ G Hb. unfold hc_evaluate_body in Hb.
  pose proof (grounded_base k H s Hin G) as G1. set (k1 := base_evaluate k s) in *.
  destruct (t_valid k1) eqn:Ev; [injection Hb as <-; assumption|].
  destruct (n =? 0); [discriminate|]. destruct (t_nth_trial k1 mod n =? 0); [|injection Hb as <-; assumption].
  destruct (argmax_last _) as [idx|]; cbn [bind] in Hb; [|discriminate].
  destruct (nth_error _ idx) as [[q sc]|] eqn:En; [|discriminate]. injection Hb as <-.
  apply grounded_eval2; [|assumption].
  apply nth_error_In in En. apply last_n_incl in En. rewrite <- Ev in En.
  destruct G1 as [_ _ C]. rewrite Forall_forall in C. apply (C (q, sc) En).
Qed.

Lemma base_body_grounded : body_grounded (fun t s => Ok (base_evaluate t s)).
Proof.
  intros k s k' H Hin _ G Hb. injection Hb as <-. exact (grounded_base k H s Hin G).
Qed.

Lemma spiral_body_grounded : body_grounded (fun t s => Ok (evaluate_current2best (new2current t))).
Proof.
  intros k s k' H Hin <- [A B C] Hb. injection Hb as <-. unfold evaluate_current2best, new2current.
  destruct (sgt _ _); constructor; cbn; auto.
Qed.

Lemma transition_grounded (b : bool) : body_grounded (fun t _ => Ok (if b then new2current t else t)).
Proof.
  intros k s k' H Hin <- G Hb. injection Hb as <-. destruct b; [|exact G]. destruct G as [A B C]. constructor; cbn; auto.
Qed.

Lemma init_body_grounded : body_grounded evaluate_init_body.
Proof.
  (* each of best, current that is still None adopts the new pair, which is in H *)
  intros k s k' H Hin _ G Hb. unfold evaluate_init_body in Hb. injection Hb as <-.
  destruct (t_pos_best k); (destruct (t_pos_cur _); [|apply grounded_adopt_cur; [exact Hin|]]); try apply grounded_adopt_best; assumption.
Qed.

Lemma evaluate_init_grounded k H p s k' : t_pos_new k = Some p -> grounded k H ->
  evaluate_init k s = Ok k' -> grounded k' (H ++ [(p, s)]).
Proof. apply track_new_score_grounded, init_body_grounded. Qed.

Lemma hc_evaluate_grounded n k H p s k' : t_pos_new k = Some p -> grounded k H ->
  hc_evaluate n k s = Ok k' -> grounded k' (H ++ [(p, s)]).
Proof. apply track_new_score_grounded, hc_body_grounded. Qed.

Lemma base_tracked_grounded k H p s k' : t_pos_new k = Some p -> grounded k H ->
  base_evaluate_tracked k s = Ok k' -> grounded k' (H ++ [(p, s)]).
Proof. apply track_new_score_grounded, base_body_grounded. Qed.

Lemma spiral_evaluate_grounded k H p s k' : t_pos_new k = Some p -> grounded k H ->
  spiral_evaluate k s = Ok k' -> grounded k' (H ++ [(p, s)]).
Proof. apply track_new_score_grounded, spiral_body_grounded. Qed.

Section Grounded.
  Variable c : algo_cfg.

  Definition algo_grounded (st : algo_state) (H : list (pos * score)) : Prop := grounded (h_trk st) H.

  Lemma algo_evaluate_grounded st s st' H p : t_pos_new (h_trk st) = Some p -> grounded (h_trk st) H ->
    algo_evaluate c st s = Ok st' -> grounded (h_trk st') (H ++ [(p, s)]).
  Proof.
    intros Hp G E. destruct (algo_evaluate_spec c _ _ _ E) as (_ & _ & [X|[X|[X|[b X]]]]).
    - exact (hc_evaluate_grounded _ _ _ _ _ _ Hp G X).
    - exact (base_tracked_grounded _ _ _ _ _ Hp G X).
    - exact (spiral_evaluate_grounded _ _ _ _ _ Hp G X).
    - exact (track_new_score_grounded _ _ _ _ _ _ (transition_grounded b) Hp G X).
  Qed.

  Theorem algo_hist_contract : opt_hist_contract (OP := algo_optimizer c) algo_grounded.
  Proof.
    constructor; cbn [algo_optimizer o_init_pos o_iterate o_eval_init o_evaluate o_finish_init ost]; unfold algo_grounded.
    - intros st st1 p sc st2 H G Hi He. destruct (algo_init_pos_spec _ _ _ Hi) as (_ & Et & _).
      destruct (algo_evaluate_init_spec _ _ _ He) as (E & _). rewrite Et in E.
      exact (evaluate_init_grounded (track_new_pos (h_trk st) p) H p sc _ eq_refl (grounded_track_new_pos _ _ p G) E).
    - intros st st1 p sc st2 H G Hi He. destruct (algo_iterate_spec c _ _ _ Hi) as (_ & Et & _).
      apply (algo_evaluate_grounded st1 sc st2 H p); [rewrite Et; reflexivity|rewrite Et; apply grounded_track_new_pos, G|exact He].
    - intros st st' H G [= <-]. assumption.
  Qed.
End Grounded.

(* C19: the greedy update never lowers the score it keeps *)
Lemma eval2best_monotone k p s : sgt (t_score_best k) (t_score_best (eval2best k p s)) = false.
Proof. pose proof (sgt_upd (t_score_best k) s) as H. unfold eval2best. destruct (sgt s (t_score_best k)); exact H. Qed.
Lemma eval2current_monotone k p s : sgt (t_score_cur k) (t_score_cur (eval2current k p s)) = false.
Proof. pose proof (sgt_upd (t_score_cur k) s) as H. unfold eval2current. destruct (sgt s (t_score_cur k)); exact H. Qed.

(* C15: a NaN score never replaces an existing current / best pair in the greedy update *)
Lemma nan_never_adopted k p : eval2best (eval2current k p SNaN) p SNaN = k.
Proof. unfold eval2best, eval2current. destruct k; reflexivity. Qed.

(* C15: only finite scores enter the valid lists *)
Lemma valid_only_finite k s : t_valid (set_score_new k s) = if is_finite s then t_valid k ++ [(t_pos_new k, s)] else t_valid k.
Proof. unfold set_score_new. destruct (is_finite s); reflexivity. Qed.

(* C15: whatever the score (NaN, infinite), hc_evaluate succeeds: the window of recent valid pairs is non-empty when it is read *)
Theorem hc_evaluate_total n k s : 1 <= n -> exists k', hc_evaluate n k s = Ok k'.
Proof.
  intros Hn. unfold hc_evaluate, track_new_score, hc_evaluate_body.
  set (k0 := base_evaluate (set_score_new k s) s).
  destruct (t_valid k0) as [|x0 l0] eqn:Ev; cbn [bind]; [eauto|].
  replace (n =? 0) with false by (symmetry; apply Z.eqb_neq; lia).
  destruct (t_nth_trial k0 mod n =? 0); cbn [bind]; [|eauto].
  set (recent := last_n (Z.to_nat n) (x0 :: l0)).
  assert (Hne : recent <> []) by (apply last_n_nonempty; [lia|discriminate]).
  destruct (argmax_last (scores_of recent)) as [idx|e] eqn:Ea; cbn [bind].
  - apply argmax_last_lt in Ea. unfold scores_of in Ea. rewrite map_length in Ea.
    destruct (nth_error recent idx) as [[p sc]|] eqn:En; [cbn; eauto|]. apply nth_error_None in En. lia.
  - unfold scores_of in Ea. destruct recent; [contradiction|discriminate].
Qed.
