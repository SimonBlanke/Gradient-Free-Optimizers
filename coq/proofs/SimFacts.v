(* SimFacts.v — two runs of search() whose states are related by R stay related, step by step, and fail alike, whenever R is
   kept by the few things a step is made of: the plain field updates, lookup, the progress-bar update, finish_search.
   C05 (verbosity) and C06 (memory) are instances. *)
Require Import Base BaseFacts StopRun Converter Driver DriverFacts.
From RecordUpdate Require Import RecordSet.
Import RecordSetNotations.

Section Sim.
  Context {OP : optimizer}.
  Variable sp : space.
  Variable f : nat -> values -> result.
  Variable clk : nat -> Z.

  (* the field updates of a step other than those made by lookup and for the progress bar *)
  Inductive plain : (drv OP -> drv OP) -> Prop :=
  | pl_clk : plain (fun x => x <| d_clk ::= S |>)
  | pl_opt o : plain (fun x => x <| d_opt := o |>)
  | pl_rows h : plain (fun x => x <| d_rows ::= h |>)
  | pl_pos_l h : plain (fun x => x <| d_pos_l ::= h |>)
  | pl_score_l h : plain (fun x => x <| d_score_l ::= h |>)
  | pl_eval_times h : plain (fun x => x <| d_eval_times ::= h |>)
  | pl_iter_times h : plain (fun x => x <| d_iter_times ::= h |>)
  | pl_n_init_total h : plain (fun x => x <| d_n_init_total ::= h |>)
  | pl_n_init_search h : plain (fun x => x <| d_n_init_search ::= h |>)
  | pl_n_iter_total h : plain (fun x => x <| d_n_iter_total ::= h |>)
  | pl_n_iter_search h : plain (fun x => x <| d_n_iter_search ::= h |>).

  Variable R : drv OP -> drv OP -> Prop.

  Definition pair_rel {A} (a b : A * drv OP) : Prop := let '(x, s) := a in let '(y, t) := b in x = y /\ R s t.

  (* what the control flow reads *)
  Record reads (s t : drv OP) : Prop := {
    rd_opt    : d_opt t = d_opt s;
    rd_clk    : d_clk t = d_clk s;
    rd_norm   : d_n_inits_norm t = d_n_inits_norm s;
    rd_sinit  : d_n_init_search t = d_n_init_search s;
    rd_niter  : c_n_iter (d_call t) = c_n_iter (d_call s);
    rd_stop   : c_stop (d_call t) = c_stop (d_call s);
    rd_start  : d_start t = d_start s;
    rd_scores : d_score_l t = d_score_l s;
    rd_best   : pb_best (d_pbar t) = pb_best (d_pbar s)
  }.

  Record simulation : Prop := {
    sim_reads : forall s t, R s t -> reads s t;
    sim_plain : forall g s t, plain g -> R s t -> R (g s) (g t);
    (* score_of looks up the value vector of a position only *)
    sim_lookup : forall s t p v, position2value sp p = Ok v -> R s t -> res_rel pair_rel (lookup sp f s v) (lookup sp f t v);
    sim_pbar : forall s t sc p k, R s t ->
      R (s <| d_pbar := pbar_update s sc p k |>) (t <| d_pbar := pbar_update t sc p k |>);
    sim_finish : forall s t, R s t -> res_rel R (finish_search sp s) (finish_search sp t)
  }.
  Arguments sim_reads _ {s t}.
  Arguments sim_plain _ {g s t}.

  Hypothesis Hsim : simulation.

  Lemma tick_sim {A B} (Q : A -> B -> Prop) s t K K' :
    R s t -> (forall z s' t', R s' t' -> Q (K z s') (K' z t')) ->
    Q (let '(z, s') := tick clk s in K z s') (let '(z, t') := tick clk t in K' z t').
  Proof.
    intros M HK. unfold tick. rewrite (rd_clk _ _ (sim_reads Hsim M)).
    exact (HK _ _ _ (sim_plain Hsim pl_clk M)).
  Qed.

  Lemma score_of_sim s t p : R s t -> res_rel pair_rel (score_of sp f clk s p) (score_of sp f clk t p).
  Proof.
    intros M. unfold score_of. apply tick_sim; [exact M|]. intros z0 s0 t0 M0.
    apply res_rel_bind_eq; [reflexivity|]. intros v Hv.
    eapply res_rel_bind; [exact (sim_lookup Hsim _ _ p v Hv M0)|].
    intros [r s1] [r' t1] [<- M1]. cbv beta iota zeta.
    apply tick_sim; [exact (sim_plain Hsim (pl_rows _) M1)|]. intros z1 s2 t2 M2.
    split; [reflexivity|]. exact (sim_plain Hsim (pl_eval_times _) M2).
  Qed.

  Lemma gen_step_sim propose digest bump s t k :
    (forall s t, R s t -> R (bump s) (bump t)) -> R s t ->
    res_rel R (gen_step sp f clk propose digest bump s k) (gen_step sp f clk propose digest bump t k).
  Proof.
    intros Hb M. unfold gen_step. apply tick_sim; [exact M|]. intros z0 s0 t0 M0.
    apply res_rel_bind_eq; [rewrite (rd_opt _ _ (sim_reads Hsim M0)); reflexivity|]. intros [o1 p] _.
    eapply res_rel_bind; [exact (score_of_sim _ _ p (sim_plain Hsim (pl_opt o1) M0))|].
    intros [sc s1] [sc' t1] [<- M1].
    apply res_rel_bind_eq; [rewrite (rd_opt _ _ (sim_reads Hsim M1)); reflexivity|]. intros o2 _. cbv zeta.
    apply tick_sim; [|intros z1 s2 t2 M2; exact (sim_plain Hsim (pl_iter_times _) M2)].
    apply Hb, (sim_pbar Hsim), (sim_plain Hsim (pl_score_l _)), (sim_plain Hsim (pl_pos_l _)), (sim_plain Hsim (pl_opt o2)), M1.
  Qed.

  Lemma bump_init_sim s t : R s t -> R (bump_init s) (bump_init t).
  Proof. intros M. exact (sim_plain Hsim (pl_n_init_search _) (sim_plain Hsim (pl_n_init_total _) M)). Qed.
  Lemma bump_iter_sim s t : R s t -> R (bump_iter s) (bump_iter t).
  Proof. intros M. exact (sim_plain Hsim (pl_n_iter_search _) (sim_plain Hsim (pl_n_iter_total _) M)). Qed.

  Lemma search_step_sim s t k : R s t -> res_rel R (search_step sp f clk s k) (search_step sp f clk t k).
  Proof.
    intros M. unfold search_step. eapply res_rel_bind.
    { rewrite (rd_norm _ _ (sim_reads Hsim M)).
      destruct (k <? d_n_inits_norm s); [|exact M]. exact (gen_step_sim _ _ _ s t k bump_init_sim M). }
    intros s1 t1 M1. eapply res_rel_bind.
    { rewrite (rd_sinit _ _ (sim_reads Hsim M1)), (rd_opt _ _ (sim_reads Hsim M1)).
      destruct (k =? d_n_init_search s1); [|exact M1].
      apply res_rel_bind_eq; [reflexivity|]. intros o' _. exact (sim_plain Hsim (pl_opt o') M1). }
    intros s2 t2 M2. rewrite (rd_sinit _ _ (sim_reads Hsim M2)), (rd_niter _ _ (sim_reads Hsim M2)).
    destruct ((d_n_init_search s2 <=? k) && (k <? c_n_iter (d_call s2))); [|exact M2].
    exact (gen_step_sim _ _ _ s2 t2 k bump_iter_sim M2).
  Qed.

  Lemma stop_check_sim s t : R s t -> res_rel pair_rel (stop_check clk s) (stop_check clk t).
  Proof.
    intros M. unfold stop_check, tick. pose proof (sim_reads Hsim M) as Rd.
    rewrite (rd_stop _ _ Rd), (rd_clk _ _ Rd), (rd_best _ _ Rd), (rd_start _ _ Rd), (rd_scores _ _ Rd).
    destruct (check_reads_clock (c_stop (d_call s))); cbn zeta iota beta; (apply res_rel_bind_eq; [reflexivity|]); intros b _.
    - split; [reflexivity|]. exact (sim_plain Hsim pl_clk M).
    - split; [reflexivity|]. exact M.
  Qed.

  Lemma loop_sim : forall todo k s t, R s t -> res_rel R (loop sp f clk todo k s) (loop sp f clk todo k t).
  Proof.
    induction todo as [|todo IH]; intros k s t M; cbn [loop]; [exact M|].
    eapply res_rel_bind; [exact (search_step_sim _ _ k M)|]. intros s1 t1 M1.
    eapply res_rel_bind; [exact (stop_check_sim _ _ M1)|]. intros [b s2] [b' t2] [<- M2].
    destruct b; [exact M2|exact (IH _ _ _ M2)].
  Qed.

  Theorem search_sim s t c c' :
    c_n_iter c' = c_n_iter c -> res_rel R (init_search sp clk s c) (init_search sp clk t c') ->
    res_rel R (search sp f clk s c) (search sp f clk t c').
  Proof.
    intros Hn Hi. unfold search. rewrite Hn. eapply res_rel_bind; [exact Hi|]. intros s0 t0 M0.
    eapply res_rel_bind; [exact (loop_sim _ _ _ _ M0)|]. exact (sim_finish Hsim).
  Qed.
End Sim.
