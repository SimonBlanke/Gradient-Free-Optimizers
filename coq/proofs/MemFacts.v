(* MemFacts.v — the memory wrapper along a search() call, for a deterministic objective. *)
Require Import Base Converter Driver DriverFacts ListFacts DictFacts.

Section ZipDict.
  Context {V : Type}.
  Notation dget := (@dict_get pos V pos_eqb).

  Lemma dget_zip_none k keys (vals : list V) : ~ In k keys -> dget k (zip keys vals) = None.
  Proof.
    intros Hn. apply (dict_get_none pos_eqb_spec). intros Hin. apply in_map_iff in Hin.
    destruct Hin as ([k' v] & <- & H). rewrite zip_combine in H. exact (Hn (in_combine_l _ _ _ _ H)).
  Qed.
  Lemma dget_zip_in k keys (vals : list V) : In k keys -> length keys = length vals -> dget k (zip keys vals) <> None.
  Proof. intros Hin Hl G. apply (dict_get_none pos_eqb_spec) in G. rewrite (proj1 (zip_unzip _ _ Hl)) in G. exact (G Hin). Qed.
End ZipDict.

Section Mem.
  Context {OP : optimizer}.
  Variable sp : space.
  Variable f0 : values -> result.           (* the deterministic objective *)
  Variable clk : nat -> Z.
  Notation f := (fun (_ : nat) (v : values) => f0 v).

  (* memory off: every step calls the objective *)
  Record minv_off (s0 : drv OP) (tr : list ev) (s : drv OP) : Prop := {
    mo_fcalls : d_fcalls s = d_fcalls s0 ++ map ev_val tr;
    mo_res    : forall e, In e tr -> ev_res e = f0 (ev_val e);
    mo_mem    : d_mem s = d_mem s0
  }.

  (* memory on, relative to the state s0 right after init_search: newcalls are the objective calls made so
     far, keys their memory keys *)
  Record minv (s0 : drv OP) (tr : list ev) (s : drv OP) (newcalls : list values) (keys : list pos) : Prop := {
    mi_fcalls : d_fcalls s = d_fcalls s0 ++ newcalls;
    mi_keys   : Forall2 (fun v k => value2position sp v = Ok k) newcalls keys;
    mi_mem    : d_mem s = d_mem s0 ++ zip keys (map f0 newcalls);
    mi_nodup  : NoDup keys;
    mi_fresh  : forall k, In k keys -> dict_get pos_eqb k (d_mem s0) = None;
    mi_hit    : forall e, In e tr ->
                  exists k, value2position sp (ev_val e) = Ok k /\ dict_get pos_eqb k (d_mem s) = Some (ev_res e);
    mi_called : forall v, In v newcalls -> exists e, In e tr /\ ev_val e = v
  }.

  Lemma minv_step s0 tr s nc ks kind s1 p v r :
    minv s0 tr s nc ks -> c_memory (d_call s) = true ->
    step_rel sp f clk kind s (zlen tr) s1 p v r ->
    exists nc' ks', minv s0 (tr ++ [(p, v, r)]) s1 nc' ks'.
  Proof.
    intros [Mf Mkeys Mmem Mnodup Mfresh Mhit Mcalled] Hon R.
    pose proof (step_lookup _ _ _ _ _ _ _ _ _ _ R) as L. cbv zeta in L. rewrite Hon in L.
    destruct L as (key & Hkey & L). destruct (dict_get pos_eqb key (d_mem s)) as [r0|] eqn:Hget.
    - (* hit: nothing but the trace changes *)
      destruct L as (-> & Hfc & Hm). exists nc, ks. rewrite <- Hm in Mmem, Hget. rewrite <- Hfc in Mf.
      constructor; try assumption.
      + rewrite Hm. apply forall_snoc; [exact Mhit|]. exists key. rewrite <- Hm. split; assumption.
      + intros v' Hin. destruct (Mcalled v' Hin) as (e & He & Hv). exists e. split; [apply in_or_app; left|]; assumption.
    - (* miss: the objective is called and the result stored under a key not seen before *)
      destruct L as ((Hr & Hfc) & Hm). rewrite dict_set_absent in Hm by exact Hget.
      rewrite Mmem, dict_get_app in Hget.
      destruct (dict_get pos_eqb key (d_mem s0)) eqn:Hm0; [discriminate|].
      assert (Hlen : length ks = length (map f0 nc)) by (rewrite map_length; symmetry; exact (Forall2_length _ _ _ Mkeys)).
      exists (nc ++ [v]), (ks ++ [key]). constructor.
      + rewrite Hfc, Mf, app_assoc. reflexivity.
      + apply Forall2_app; [exact Mkeys|]. constructor; [exact Hkey|constructor].
      + rewrite Hm, Mmem, map_app, !zip_combine, combine_app, <- app_assoc by exact Hlen. cbn. rewrite Hr. reflexivity.
      + apply NoDup_app_snoc; [exact Mnodup|]. intros Hin. exact (dget_zip_in _ _ _ Hin Hlen Hget).
      + apply forall_snoc; [exact Mfresh|exact Hm0].
      + rewrite Hm. apply forall_snoc.
        * intros e Hin. destruct (Mhit e Hin) as (k & Hk1 & Hk2). exists k. split; [assumption|]. rewrite dict_get_app, Hk2. reflexivity.
        * exists key. split; [exact Hkey|]. rewrite dict_get_app, Mmem, dict_get_app, Hm0, Hget. cbn. rewrite pos_eqb_refl. reflexivity.
      + apply forall_snoc.
        * intros v' Hin. destruct (Mcalled v' Hin) as (e & He & Hv). exists e. split; [apply in_or_app; left|]; assumption.
        * exists (p, v, r). split; [apply in_or_app; right; left|]; reflexivity.
  Qed.

  Lemma stepped_minv s0 tr s : stepped sp f clk s0 tr s ->
    if c_memory (d_call s0) then exists nc ks, minv s0 tr s nc ks else minv_off s0 tr s.
  Proof.
    intros St. destruct (c_memory (d_call s0)) eqn:Cm; induction St as [|tr s s1 b s2 p v r St IH R Ho Hk].
    - exists [], []. constructor; cbn; rewrite ?app_nil_r; auto; try constructor; contradiction.
    - destruct IH as (nc & ks & M). rewrite <- (t_call _ _ _ _ _ (proj1 (stepped_traced _ _ _ _ _ _ St))) in Cm.
      destruct (minv_step _ _ _ _ _ _ _ _ _ _ M Cm R) as (nc' & ks' & [ ]).
      apply stop_check_spec in Hk. destruct Hk as [_ ->]. exists nc', ks'. constructor; assumption.
    - constructor; cbn; rewrite ?app_nil_r; auto. contradiction.
    - destruct IH as [Mf Mres Mmem]. rewrite <- (t_call _ _ _ _ _ (proj1 (stepped_traced _ _ _ _ _ _ St))) in Cm.
      pose proof (step_lookup _ _ _ _ _ _ _ _ _ _ R) as L. cbv zeta in L. rewrite Cm in L. destruct L as ((Hr & Hfc) & Hm).
      apply stop_check_spec in Hk. destruct Hk as [_ ->]. constructor.
      + cbn. rewrite Hfc, Mf, map_app, app_assoc. reflexivity.
      + apply forall_snoc; [exact Mres|exact Hr].
      + cbn. rewrite Hm. exact Mmem.
  Qed.

End Mem.
