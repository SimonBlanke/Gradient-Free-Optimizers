(* ConverterFacts.v — facts about converter.py's model: the index-driven loops as structural zips along the
   space, for any per-dimension conversion; nearest-index lookup; round trips. *)
Require Import Base BaseFacts Converter ListFacts.

(* position2value as a zip along the space: row_conv (below) at g = nth_py, written out *)
Fixpoint p2v (sp : space) (p : pos) : res values :=
  match sp, p with
  | [], _ => Ok []
  | dim :: tl, i :: p' => do v <- nth_py dim i; do vs <- p2v tl p'; Ok (v :: vs)
  | _ :: _, [] => Err IndexError
  end.

(* position2value and value2position are one loop, with g = nth_py and g = nearest_index; likewise the
   batched conversions, column by column (C20_proofs.cols_conv) *)
Section Conv.
  Context {A B : Type} (g : list Z -> A -> res B).

  Fixpoint row_conv (sp : space) (row : list A) : res (list B) :=
    match sp, row with
    | [], _ => Ok []
    | dim :: tl, x :: row' => do y <- g dim x; do ys <- row_conv tl row'; Ok (y :: ys)
    | _ :: _, [] => Err IndexError
    end.

  (* as converter.py runs it: dimension number n reads row[n] *)
  Fixpoint index_conv (sp : space) (row : list A) (n : Z) : res (list B) :=
    match sp with
    | [] => Ok []
    | dim :: tl => do x <- nth_nowrap row n; do y <- g dim x; do ys <- index_conv tl row (n + 1); Ok (y :: ys)
    end.

  Lemma index_conv_zip sp : forall row n, 0 <= n -> index_conv sp row n = row_conv sp (skipn (Z.to_nat n) row).
  Proof.
    induction sp as [|dim sp IH]; intros row n Hn; cbn [index_conv row_conv]; [reflexivity|].
    rewrite nth_nowrap_skipn by assumption.
    rewrite (IH row (n + 1)) by lia. replace (Z.to_nat (n + 1)) with (S (Z.to_nat n)) by lia.
    rewrite skipn_succ. destruct (skipn (Z.to_nat n) row) as [|x row']; cbn; reflexivity.
  Qed.

  Lemma index_conv_length sp : forall row n out, index_conv sp row n = Ok out -> length out = length sp.
  Proof.
    induction sp as [|dim sp IH]; intros row n out H; cbn in H; [injection H as <-; reflexivity|].
    apply bind_ok in H. destruct H as (x & _ & H). apply bind_ok in H. destruct H as (y & _ & H).
    apply bind_ok in H. destruct H as (ys & Hys & [= <-]). cbn. f_equal. exact (IH _ _ _ Hys).
  Qed.
End Conv.

(* the model's loops are separate Fixpoints with nth_py / nearest_index written in; each is index_conv (p2v: row_conv) after beta,
   so these hold by conversion *)
Lemma position2value_aux_conv sp p n : position2value_aux sp p n = index_conv (@nth_py Z) sp p n.
Proof. reflexivity. Qed.
Lemma value2position_aux_conv sp v n : value2position_aux sp v n = index_conv nearest_index sp v n.
Proof. reflexivity. Qed.
Lemma p2v_conv sp p : p2v sp p = row_conv (@nth_py Z) sp p.
Proof. reflexivity. Qed.

Lemma position2value_zip sp p : position2value sp p = p2v sp p.
Proof. unfold position2value. rewrite position2value_aux_conv, p2v_conv. exact (index_conv_zip _ sp p 0 (Z.le_refl 0)). Qed.
Lemma value2position_zip sp v : value2position sp v = row_conv nearest_index sp v.
Proof. unfold value2position. rewrite value2position_aux_conv. exact (index_conv_zip _ sp v 0 (Z.le_refl 0)). Qed.

Lemma position2value_length sp p v : position2value sp p = Ok v -> length v = length sp.
Proof. unfold position2value. rewrite position2value_aux_conv. apply index_conv_length. Qed.

Lemma argmin_first_best l : argmin_first l = arg_best (fun y b => y <? b) l.
Proof. reflexivity. Qed.

Lemma argmin_first_split l r : argmin_first l = Ok r ->
  exists pre m post, l = pre ++ m :: post /\ r = length pre /\ Forall (fun y => m < y) pre /\ Forall (fun y => m <= y) post.
Proof.
  rewrite argmin_first_best. apply (arg_best_split _ (fun y b => y < b) (fun y b => b <= y)); intros; [apply Z.ltb_spec|lia|lia].
Qed.

Lemma nearest_index_member dim x : In x dim ->
  exists pre post, dim = pre ++ x :: post /\ ~ In x pre /\ nearest_index dim x = Ok (Z.of_nat (length pre)).
Proof.
  intros Hin. unfold nearest_index. set (g := fun a => Z.abs (x - a)).
  destruct (argmin_first (map g dim)) as [r|e] eqn:E; [|destruct dim; [contradiction|discriminate]].
  destruct (argmin_first_split _ _ E) as (gpre & m & gpost & Hsplit & -> & Fpre & Fpost).
  apply map_eq_app in Hsplit. destruct Hsplit as (pre & rest & -> & <- & Hrest).
  apply map_eq_cons in Hrest. destruct Hrest as (a & post & -> & <- & <-).
  (* the minimum |x - a| is 0, since x itself occurs *)
  assert (Ha : g a <= 0).
  { rewrite Forall_forall in Fpre, Fpost. apply in_app_or in Hin. destruct Hin as [Hin|[->|Hin]].
    - specialize (Fpre (g x) (in_map g _ _ Hin)). unfold g in *. lia.
    - unfold g. lia.
    - specialize (Fpost (g x) (in_map g _ _ Hin)). unfold g in *. lia. }
  assert (a = x) by (unfold g in Ha; lia). subst a.
  exists pre, post. rewrite map_length. repeat split. intros Hp.
  rewrite Forall_forall in Fpre. specialize (Fpre (g x) (in_map g _ _ Hp)). lia.
Qed.

Definition in_box (sp : space) (p : pos) : Prop := Forall2 (fun dim i => 0 <= i < zlen dim) sp p.

(* the key computed by the memory wrapper decodes to the very same values *)
Lemma v2p_of_p2v sp : forall p v, p2v sp p = Ok v ->
  exists key, row_conv nearest_index sp v = Ok key /\ p2v sp key = Ok v /\ in_box sp key.
Proof.
  induction sp as [|dim sp IH]; intros p v H; cbn in H.
  - inversion H; subst. exists []. repeat split; constructor.
  - destruct p as [|i p']; [discriminate|].
    apply bind_ok in H. destruct H as (x & Ex & H). apply bind_ok in H. destruct H as (vs & Ev & [= <-]).
    destruct (nearest_index_member dim x (nth_py_in _ _ _ Ex)) as (pre & post & -> & _ & Hj).
    destruct (IH p' vs Ev) as (key & Hk1 & Hk2 & Hk3).
    exists (Z.of_nat (length pre) :: key). cbn. rewrite Hj. cbn. rewrite Hk1. cbn. rewrite nth_py_mid. cbn. rewrite Hk2.
    repeat split. constructor; [|assumption]. unfold zlen. rewrite app_length. cbn. lia.
Qed.

Lemma value2position_of_position2value sp p v : position2value sp p = Ok v ->
  exists key, value2position sp v = Ok key /\ position2value sp key = Ok v /\ in_box sp key.
Proof. rewrite position2value_zip. intros H. destruct (v2p_of_p2v sp p v H) as (key & A & B & C).
  exists key. rewrite value2position_zip, position2value_zip. auto. Qed.

Lemma member_key_inj sp p1 v1 p2 v2 k :
  position2value sp p1 = Ok v1 -> position2value sp p2 = Ok v2 ->
  value2position sp v1 = Ok k -> value2position sp v2 = Ok k -> v1 = v2.
Proof.
  intros H1 H2 K1 K2.
  destruct (value2position_of_position2value sp p1 v1 H1) as (k1 & A1 & B1 & _).
  destruct (value2position_of_position2value sp p2 v2 H2) as (k2 & A2 & B2 & _).
  assert (k1 = k) by congruence. assert (k2 = k) by congruence. subst. congruence.
Qed.

(* with pairwise distinct values per dimension the key IS the position (for an in-box position) *)
Definition distinct_dims (sp : space) : Prop := Forall (@NoDup Z) sp.

Lemma p2v2p sp : distinct_dims sp -> forall p v, in_box sp p -> p2v sp p = Ok v -> row_conv nearest_index sp v = Ok p.
Proof.
  induction sp as [|dim sp IH]; intros Hd p v Hb H.
  - inversion Hb; subst. reflexivity.
  - inversion Hb as [|? i ? p' Hi Hb']; subst. inversion Hd as [|? ? Hnd Hd']; subst.
    apply bind_ok in H. destruct H as (x & Ex & H). apply bind_ok in H. destruct H as (vs & Ev & [= <-]).
    destruct (nearest_index_member dim x (nth_py_in _ _ _ Ex)) as (pre & post & -> & _ & Hj).
    (* x occurs once, so i is where nearest_index finds it *)
    rewrite nth_py_nonneg in Ex by lia.
    destruct (nth_error (pre ++ x :: post) (Z.to_nat i)) as [x'|] eqn:Exi; [injection Ex as ->|discriminate].
    assert (Z.to_nat i = length pre) by (eapply NoDup_nth_error_inj; [exact Hnd|exact Exi|apply nth_error_mid]).
    cbn. rewrite Hj. cbn. rewrite (IH Hd' p' vs Hb' Ev). cbn. do 2 f_equal. lia.
Qed.

Theorem position_roundtrip sp p v : distinct_dims sp -> in_box sp p ->
  position2value sp p = Ok v -> value2position sp v = Ok p.
Proof. rewrite position2value_zip, value2position_zip. intros. eapply p2v2p; eauto. Qed.

Lemma p2v_in_box_ok sp : forall p, in_box sp p -> exists v, p2v sp p = Ok v /\
  Forall2 (fun dim x => In x dim) sp v.
Proof.
  induction sp as [|dim sp IH]; intros p Hb; inversion Hb as [|? i ? p' Hi Hb']; subst.
  - exists []. split; [reflexivity|constructor].
  - destruct (IH p' Hb') as (vs & Hv & Hin).
    destruct (nth_error dim (Z.to_nat i)) as [x|] eqn:Ex.
    + exists (x :: vs). cbn. rewrite nth_py_nonneg by lia. rewrite Ex. cbn. rewrite Hv. cbn.
      split; [reflexivity|]. constructor; [eapply nth_error_In; eauto|assumption].
    + apply nth_error_None in Ex. unfold zlen in Hi. lia.
Qed.
