(* PopFacts.v — closure of the population optimizers' iterate steps (theories/Pop.v): whatever the draws and the
   oracle vectors (NaN-free), the emitted position is inside the box and satisfies the constraints (C01, C02).  Every
   step but one also reports at least one constraint evaluation; the exception is the genetic algorithm serving a
   position from its offspring queue (count 0): such a position went through the constraint loop when the queue was
   filled, which ga_iterate_ok carries as an invariant of the queue. *)
Require Import Base Converter ConverterFacts CoreOpt CoreFacts Pop Smbo ListFacts.

Section PopFacts.
  Variable sp : space.
  Variable cons : values -> bool.
  Variable fuel : nat.
  Variable rrp : Z * Z.
  Hypothesis Hdims : dims_ok sp.

  Notation emit := (emit_ok sp cons).

  Lemma or_climb_sound p t c : in_box sp p -> sound mt (fun '(q, _, c') => emit q /\ c < c') t (or_climb sp cons fuel p t c).
  Proof.
    intros Hb. apply feasible_or_sound; [exact Hb|lia|apply move_climb_sound, Hdims].
  Qed.

  Lemma move_linear_sound cur t : length cur = length sp ->
    sound mt (fun '(p, _, c) => in_box sp p /\ 0 <= c) t (move_linear sp cons fuel rrp cur t).
  Proof.
    intros Hl. unfold move_linear. apply rand_iter_sound; [intros p t' c' [Hb _] Hc; split; [exact Hb|lia]|]. intros t0.
    apply sound_float. intros _ _ t1. apply sound_float. intros _ _ t2.
    eapply sound_bind; [apply read_reals_sound|]. intros [vs t3] [Hlen _]. apply sound_ret; [|reflexivity].
    split; [apply move_part_in_box; assumption|lia].
  Qed.

  Theorem pso_iterate_ok cur t p t' c : length cur = length sp -> nan_free t ->
    pso_iterate sp cons fuel rrp cur t = Ok (p, t', c) -> emit p /\ is_suffix t' t /\ 0 < c.
  Proof.
    intros Hl. apply sound_move. unfold pso_iterate.
    eapply sound_bind; [apply move_linear_sound; exact Hl|]. intros [[q t1] c1] [Hb Hc].
    apply (sound_count _ 0 c1); [lia|apply or_climb_sound; exact Hb].
  Qed.

  Lemma clip_trunc_range maxp x : 0 <= maxp -> x <> XNaN -> 0 <= clip_trunc maxp x <= maxp.
  Proof.
    intros Hm Hx. destruct x as [m e| | |]; cbn [clip_trunc]; try lia; [|congruence].
    destruct (Z.leb_spec 0 e); [lia|].
    destruct (Z.ltb_spec m 0); [lia|]. destruct (Z.ltb_spec (maxp * 2 ^ (- e)) m); [lia|].
    split; [apply Z.div_pos; lia|]. apply Z.div_le_upper_bound; lia.
  Qed.

  Lemma move_spiral_sound t : sound mt (fun '(p, _, c) => in_box sp p /\ 0 <= c) t (move_spiral sp cons fuel rrp t).
  Proof.
    unfold move_spiral. apply rand_iter_sound; [intros p t' c' [Hb _] Hc; split; [exact Hb|lia]|]. intros t0.
    eapply sound_bind; [apply read_reals_sound|]. intros [vs t3] [Hlen Hx]. apply sound_ret; [|reflexivity].
    split; [apply (map_zip_in_box sp _ _ Hdims clip_trunc_range); assumption|lia].
  Qed.

  (* the member's own HillClimbing.iterate with the count running from c: hill_iterate is the case c = 0 *)
  Lemma climb_iter_sound c t :
    sound mt (fun '(p, _, c') => emit p /\ c < c') t (rand_iter sp cons fuel rrp t c (fun t1 => move_climb sp cons fuel t1 c)).
  Proof. apply rand_iter_sound; [auto|]. intros t0. apply move_climb_sound, Hdims. Qed.

  Theorem spiral_iterate_ok t p t' c : nan_free t ->
    spiral_iterate sp cons fuel rrp t = Ok (p, t', c) -> emit p /\ is_suffix t' t /\ 0 < c.
  Proof.
    apply sound_move. unfold spiral_iterate.
    eapply sound_bind; [apply move_spiral_sound|]. intros [[q t1] c1] [Hb Hc].
    apply feasible_or_sound; [exact Hb|exact Hc|apply climb_iter_sound].
  Qed.

  Lemma constraint_loop_sound f : forall p t c, in_box sp p ->
    sound mt (fun '(q, _, c') => emit q /\ c < c') t (constraint_loop sp cons fuel f p t c).
  Proof.
    induction f as [|f IH]; intros p t c Hb; [apply sound_err|].
    apply feasible_or_sound; [exact Hb|lia|].
    eapply sound_bind; [apply move_climb_sound; exact Hdims|]. intros [[q t1] c1] [[Hq _] Hc].
    apply (sound_count _ (c + 1) c1); [lia|apply IH; exact Hq].
  Qed.

  Lemma far_outside_near (s : space) rs :
    Forall (fun c0 => c0 = (Some 0, false)) (map (fun mr => comp_dist2 (fst mr) (snd mr)) (zip (max_positions s) rs)) ->
    far_outside s rs = false.
  Proof.
    unfold far_outside. cbv zeta. generalize (map (fun mr => comp_dist2 (fst mr) (snd mr)) (zip (max_positions s) rs)). intros cs H.
    assert (E : existsb snd cs = false /\ existsb (fun c0 => match fst c0 with None => true | Some _ => false end) cs = false /\
                forall a, fold_left (fun a c0 => a + match fst c0 with Some z => z | None => 0 end) cs a = a).
    { induction H as [|x l -> _ (A & B & C)]; cbn; [auto|]. repeat split; try assumption. intros a. rewrite Z.add_0_r. apply C. }
    destruct E as (A & B & C). rewrite A, B, C. apply Z.ltb_ge. rewrite Z.mul_0_l. apply Z.square_nonneg.
  Qed.

  (* an in-box integer position passes through conv2pos unchanged: every component is its own clipping, at distance 0 *)
  Lemma conv2pos_id_gen (s : space) : forall p, in_box s p ->
    map (fun mr => clip_int (fst mr) (snd mr)) (zip (max_positions s) (map rint_x (xpos p))) = p /\
    Forall (fun c => c = (Some 0, false)) (map (fun mr => comp_dist2 (fst mr) (snd mr)) (zip (max_positions s) (map rint_x (xpos p)))).
  Proof.
    unfold in_box, max_positions, xpos. induction 1 as [|dim z s p Hz Hr (E & A)]; cbn -[rint_dyadic]; [auto|].
    rewrite !rint_dyadic_int. replace (Z.min (Z.max z 0) (zlen dim - 1)) with z by lia. rewrite E, Z.sub_diag. auto.
  Qed.
  Lemma rint_dyadic_int' z : rint_dyadic z 0 = z.
  Proof. exact (rint_dyadic_int z). Qed.

  Lemma conv2pos_id p t c : in_box sp p -> conv2pos sp cons fuel (xpos p) t c = Ok (p, t, c).
  Proof.
    intros Hb. destruct (conv2pos_id_gen sp p Hb) as (E & A). unfold conv2pos. rewrite (far_outside_near sp _ A), E. reflexivity.
  Qed.

  Lemma choose2_len ch a b : length ch = length a -> length a = length b -> length (choose2 ch a b) = length a.
  Proof.
    revert a b. induction ch as [|c ch IH]; intros [|x a] [|y b] H1 H2; cbn in *; try discriminate; try reflexivity.
    f_equal. apply IH; lia.
  Qed.
  Lemma choose2_nonan ch a b : Forall (fun x => x <> XNaN) a -> Forall (fun x => x <> XNaN) b -> Forall (fun x => x <> XNaN) (choose2 ch a b).
  Proof.
    revert a b. induction ch as [|c ch IH]; intros [|x a] [|y b] Ha Hb; cbn; try constructor.
    - inversion Ha; inversion Hb; subst. destruct (c =? 0); assumption.
    - inversion Ha; inversion Hb; subst. apply IH; assumption.
  Qed.

  Lemma read_choices_sound k hi : forall t,
    sound snd (fun r => length (fst r) = k /\ Forall (fun z => 0 <= z < hi) (fst r)) t (read_choices k hi t).
  Proof.
    induction k as [|k IH]; intros t; cbn [read_choices]; [apply sound_ret; [split; [reflexivity|constructor]|reflexivity]|].
    apply sound_int. intros z t0. destruct ((0 <=? z) && (z <? hi)) eqn:R; [|apply sound_err].
    eapply sound_bind; [apply IH|]. intros [zs t1] [Hl Hz]. apply sound_ret; [|reflexivity]. cbn in *.
    split; [congruence|]. constructor; [lia|exact Hz].
  Qed.

  Lemma xpos_nonan p : Forall (fun x => x <> XNaN) (xpos p).
  Proof. unfold xpos. apply Forall_map, Forall_forall. discriminate. Qed.

  Theorem de_iterate_ok pop target t p t' c : length target = length sp -> nan_free t ->
    de_iterate sp cons fuel pop target t = Ok (p, t', c) -> emit p /\ is_suffix t' t /\ 0 < c.
  Proof.
    intros Hl. apply sound_move. unfold de_iterate.
    apply sound_int. intros i1 t0. apply sound_int. intros i2 t0'. apply sound_int. intros i3 t1. destruct (negb _); [apply sound_err|].
    eapply sound_bind; [apply read_reals_sound|]. intros [mv t2] [Lm Xm].
    eapply sound_bind; [apply read_choices_sound|]. intros [ch t3] [Lc _].
    assert (Lx : length (xpos target) = length sp) by (unfold xpos; rewrite map_length; exact Hl).
    eapply sound_bind.
    { apply conv2pos_sound; [exact Hdims| |apply choose2_nonan; [apply xpos_nonan|exact Xm]].
      rewrite choose2_len; [exact Lx|congruence|congruence]. }
    intros [[q t4] c4] [Hb C4].
    eapply sound_bind; [apply constraint_loop_sound; exact Hb|]. intros [[q2 t5] c5] [[Hb2 F2] C5].
    rewrite (conv2pos_id q2 t5 c5 Hb2). apply sound_ret; [|reflexivity].
    split; [split; assumption|lia].
  Qed.

  Lemma choose_k_in_box parents : Forall (in_box sp) parents -> forall ch (i : nat) child,
    choose_k ch parents i = Ok child -> Forall2 (fun dim z => 0 <= z < zlen dim) (skipn i sp) child -> True.
  Proof. trivial. Qed.

  (* every coordinate of the child is the same coordinate of some parent *)
  Lemma choose_k_box parents : Forall (in_box sp) parents -> forall ch (i : nat) child,
    (i + length ch = length sp)%nat -> choose_k ch parents i = Ok child ->
    Forall2 (fun dim z => 0 <= z < zlen dim) (skipn i sp) child.
  Proof.
    intros HP. induction ch as [|c ch IH]; intros i child Hlen H; cbn [choose_k] in H.
    - inversion H; subst. rewrite Nat.add_0_r in Hlen. subst i. rewrite skipn_all. constructor.
    - destruct (nth_nowrap parents c) as [par|] eqn:E1; cbn [bind] in H; [|discriminate].
      destruct (nth_nowrap par (Z.of_nat i)) as [x|] eqn:E2; cbn [bind] in H; [|discriminate].
      destruct (choose_k ch parents (S i)) as [rest|] eqn:E3; cbn [bind] in H; [|discriminate]. inversion H; subst.
      assert (Hpar : in_box sp par). { rewrite Forall_forall in HP. apply HP. eapply nth_nowrap_in; eassumption. }
      destruct (nth_nowrap_forall2 _ _ _ _ _ Hpar E2) as (dim & Ed & Hx).
      rewrite (skipn_nth_error _ _ _ Ed). constructor; [exact Hx|]. apply IH; [cbn in Hlen; lia|exact E3].
  Qed.

  Lemma recombine_sound parents t : Forall (in_box sp) parents ->
    sound snd (fun r => in_box sp (fst r)) t (recombine sp parents t).
  Proof.
    intros HP. unfold recombine. eapply sound_bind; [apply read_choices_sound|]. intros [ch t1] [Lc _]. cbn [fst snd] in *.
    destruct (choose_k ch parents 0) as [child|] eqn:E2; [|apply sound_err]. apply sound_ret; [|reflexivity].
    apply (choose_k_box parents HP ch 0%nat child); [cbn; lia|exact E2].
  Qed.

  Lemma cross_or_climb_sound parents t : Forall (in_box sp) parents ->
    sound mt (fun '(p, _, c) => emit p /\ 0 < c) t (cross_or_climb sp cons fuel parents t).
  Proof.
    intros HP. unfold cross_or_climb. eapply sound_bind; [apply recombine_sound; exact HP|]. intros [child t1] Hb.
    apply or_climb_sound. exact Hb.
  Qed.

  Theorem cross_or_climb_ok parents t p t' c : Forall (in_box sp) parents -> nan_free t ->
    cross_or_climb sp cons fuel parents t = Ok (p, t', c) -> emit p /\ is_suffix t' t /\ 0 < c.
  Proof. intros HP. apply sound_move, cross_or_climb_sound, HP. Qed.

  Theorem es_iterate_ok mut curs t p t' c : Forall (in_box sp) curs -> nan_free t ->
    es_iterate sp cons fuel rrp mut curs t = Ok (p, t', c) -> emit p /\ is_suffix t' t /\ 0 < c.
  Proof.
    intros HP. apply sound_move. unfold es_iterate, hill_iterate.
    destruct (zlen curs =? 1); [apply climb_iter_sound|].
    apply sound_int. intros r t0. apply sound_float. intros um ue t1.
    destruct (negb _); [apply sound_err|]. destruct (dyadic_le um ue _ _); [apply climb_iter_sound|].
    apply sound_int. intros r2 t2. destruct (negb _); [apply sound_err|].
    destruct (nth_nowrap curs r) as [a|] eqn:Ea; [|apply sound_err]. destruct (nth_nowrap curs r2) as [b|] eqn:Eb; [|apply sound_err].
    rewrite Forall_forall in HP.
    apply cross_or_climb_sound. repeat constructor; apply HP; eapply nth_nowrap_in; eassumption.
  Qed.

  Lemma make_offspring_sound parents : Forall (in_box sp) parents -> forall k t c,
    sound mt (fun '(qs, _, _) => Forall emit qs) t (make_offspring sp cons fuel k parents t c).
  Proof.
    intros HP. induction k as [|k IH]; intros t c; cbn [make_offspring]; [apply sound_ret; [constructor|reflexivity]|].
    eapply sound_bind; [apply recombine_sound; exact HP|]. intros [ch t0] Hb.
    eapply sound_bind; [apply constraint_loop_sound; exact Hb|]. intros [[q t1] c1] [Hq _].
    eapply sound_bind; [apply IH|]. intros [[qs t2] c2] Hqs. apply sound_ret; [|reflexivity]. constructor; assumption.
  Qed.

  Lemma replace_nth_forall {A} (P : A -> Prop) l i x : Forall P l -> P x -> Forall P (replace_nth l i x).
  Proof.
    intros HL Hx. revert i. induction HL as [|y l Hy HL' IH]; intros i; cbn; [constructor|].
    destruct i; constructor; try assumption. apply IH.
  Qed.

  Lemma read_distinct_sound k hi : forall seen t, sound snd (fun _ => True) t (read_distinct k hi seen t).
  Proof.
    induction k as [|k IH]; intros seen t; cbn [read_distinct]; [apply sound_ret; [exact I|reflexivity]|].
    apply sound_int. intros z t0. destruct (_ && _); [|apply sound_err].
    eapply sound_bind; [apply IH|]. intros [zs t1] _. apply sound_ret; [exact I|reflexivity].
  Qed.

  Lemma ga_crossover_sound n_parents n_off news t : Forall (in_box sp) news ->
    sound mt (fun '(qs, _, _) => Forall emit qs) t (ga_crossover sp cons fuel n_parents n_off news t).
  Proof.
    intros HP. unfold ga_crossover. apply sound_float. intros rm re t1.
    rewrite <- (firstn_skipn (Z.to_nat (zlen news / 2)) news) in HP. apply Forall_app in HP. destruct HP as [HB HW].
    eapply (sound_bind _ snd (fun r => Forall (in_box sp) (fst r))).
    { destruct (negb _); [|apply sound_ret; [exact HB|reflexivity]].
      apply sound_int. intros j t0. apply sound_int. intros i t2.
      destruct (negb _); [apply sound_err|].
      destruct (nth_nowrap _ j) as [w|] eqn:EW; [|apply sound_err]. apply sound_ret; [|reflexivity].
      apply replace_nth_forall; [exact HB|]. rewrite Forall_forall in HW. apply HW. eapply nth_nowrap_in; eassumption. }
    intros [best1 t3] HB1. destruct (zlen best1 <? n_parents); [apply sound_err|].
    eapply sound_bind; [apply read_distinct_sound|]. intros [idx t4] _. cbn [fst snd].
    destruct (map_res (nth_nowrap best1) idx) as [parents|] eqn:EP; [|apply sound_err].
    apply make_offspring_sound. exact (map_res_nth_forall _ _ _ _ HB1 EP).
  Qed.

  (* the tape of an iterate result that also returns the remaining queue *)
  Definition qt (x : pos * tape * Z * list pos) : tape := snd (fst (fst x)).

  Lemma ga_iterate_sound mut n_parents n_off news queue t : Forall (in_box sp) news -> Forall emit queue ->
    sound qt (fun '(p, _, _, queue') => emit p /\ Forall emit queue') t (ga_iterate sp cons fuel rrp mut n_parents n_off news queue t).
  Proof.
    intros HP HQ. unfold ga_iterate.
    assert (Hh : forall t0, sound qt (fun '(p, _, _, queue') => emit p /\ Forall emit queue') t0 (do r <- hill_iterate sp cons fuel rrp t0; Ok (r, queue))).
    { intros t0. eapply sound_bind; [apply climb_iter_sound|]. intros [[q t1] c1] [Hq _]. apply sound_ret; [split; assumption|reflexivity]. }
    destruct (zlen news =? 1); [apply Hh|].
    apply sound_int. intros r t0. apply sound_float. intros um ue t1.
    destruct (negb _); [apply sound_err|]. destruct (dyadic_le um ue _ _); [apply Hh|].
    destruct queue as [|q rest]; [|inversion HQ; subst; apply sound_ret; [split; assumption|reflexivity]].
    eapply sound_bind; [apply ga_crossover_sound; exact HP|]. intros [[qs t2] c2] Hqs.
    destruct qs as [|q rest]; [apply sound_err|]. inversion Hqs; subst. apply sound_ret; [split; assumption|reflexivity].
  Qed.

  Theorem ga_iterate_ok mut n_parents n_off news queue t p t' c queue' : Forall (in_box sp) news -> Forall emit queue -> nan_free t ->
    ga_iterate sp cons fuel rrp mut n_parents n_off news queue t = Ok (p, t', c, queue') ->
    emit p /\ Forall emit queue' /\ is_suffix t' t.
  Proof.
    intros HP HQ Hn H. destruct (sound_elim qt _ _ _ _ (ga_iterate_sound mut n_parents n_off news queue t HP HQ) Hn H) as [[A B] C]. auto.
  Qed.

  Lemma pattern_iterate_sound queue t : Forall (in_box sp) queue ->
    sound qt (fun '(p, _, c, queue') => emit p /\ Forall (in_box sp) queue' /\ 0 < c) t (pattern_iterate sp cons fuel rrp queue t).
  Proof.
    intros HQ. apply sound_float. intros um ue t0.
    destruct (dyadic_gt _ _ um ue).
    - eapply sound_bind; [apply move_random_sound|]. intros [[q t1] c1] [A B]. apply sound_ret; [auto|reflexivity].
    - destruct queue as [|q rest]; [apply sound_err|]. inversion HQ; subst.
      eapply sound_bind; [apply or_climb_sound; assumption|]. intros [[q1 t1] c1] [A B]. apply sound_ret; [auto|reflexivity].
  Qed.

  Theorem pattern_iterate_ok queue t p t' c queue' : Forall (in_box sp) queue -> nan_free t ->
    pattern_iterate sp cons fuel rrp queue t = Ok (p, t', c, queue') -> emit p /\ Forall (in_box sp) queue' /\ is_suffix t' t /\ 0 < c.
  Proof.
    intros HQ Hn H. destruct (sound_elim qt _ _ _ _ (pattern_iterate_sound queue t HQ) Hn H) as [(A & B & C) D]. auto.
  Qed.

  Theorem vec_iterate_ok xs t p t' c : length xs = length sp -> Forall (fun x => x <> XNaN) xs -> nan_free t ->
    vec_iterate sp cons fuel xs t = Ok (p, t', c) -> emit p /\ is_suffix t' t /\ 0 < c.
  Proof.
    intros Hl Hx. apply sound_move. unfold vec_iterate.
    eapply sound_bind; [apply conv2pos_sound; assumption|]. intros [[q t1] c1] [Hb C1].
    apply (sound_count _ 0 c1); [lia|apply or_climb_sound; exact Hb].
  Qed.

  Lemma in_box_b_true (s : space) p : in_box_b s p = true -> in_box s p.
  Proof.
    unfold in_box. revert p. induction s as [|dim s IH]; intros [|z p] H; cbn in H; try discriminate; [constructor|].
    apply andb_prop in H. destruct H as [H1 H2]. apply andb_prop in H1. destruct H1 as [A B].
    constructor; [lia|apply IH; exact H2].
  Qed.

  Theorem cand_iterate_ok cand t p t' c : in_box_b sp cand = true -> nan_free t ->
    cand_iterate sp cons fuel cand t = Ok (p, t', c) -> emit p /\ is_suffix t' t /\ 0 < c.
  Proof. intros Hb. apply sound_move, or_climb_sound, in_box_b_true, Hb. Qed.

  Theorem powell_iterate_ok cand t p t' c : in_box_b sp cand = true -> nan_free t ->
    powell_iterate sp cons fuel rrp cand t = Ok (p, t', c) -> emit p /\ is_suffix t' t /\ 0 < c.
  Proof.
    intros Hb. apply sound_move. unfold powell_iterate. apply rand_iter_sound; [auto|]. intros t0.
    apply or_climb_sound, in_box_b_true, Hb.
  Qed.
End PopFacts.

(* the model-based optimizers: an accepted proposal is one of the candidates, each checked by emit_b when the candidate set was built *)
Theorem smbo_proposal_emit sp cons (comb : list pos) acq i p : dims_ok sp ->
  forallb (emit_b sp cons) comb = true -> proposal_ok comb acq i p = true -> emit_ok sp cons p.
Proof.
  intros Hd HC HP. unfold proposal_ok in HP.
  destruct (nth_error comb i) as [q|] eqn:E; [|discriminate]. destruct (nth_error acq i); [|discriminate].
  apply andb_prop in HP. destruct HP as [HP _]. apply andb_prop in HP. destruct HP as [HP _]. apply pos_eqb_eq in HP. subst q.
  rewrite forallb_forall in HC. specialize (HC p (nth_error_In _ _ E)). unfold emit_b in HC.
  apply andb_prop in HC. destruct HC as [HB HF]. split; [apply in_box_b_true; exact HB|].
  destruct (feasible sp cons p) as [[|]|]; try discriminate. reflexivity.
Qed.
