(* CoreFacts.v — closure of the move operators: whatever the draws (NaN samples excluded where real vectors are read),
   a position returned by move_random or move_climb is a genuine, feasible point of the search space and conv2pos
   returns a genuine one; the rejection loops exit at the first feasible candidate.  `sound` with its rules is how
   move_climb, and the iterate steps in PopFacts.v and AlgoFacts.v, are proved; move_random and conv2pos, which need no
   NaN-free tape, are proved directly and enter through sound_of_ok. *)
Require Import Base Converter ConverterFacts CoreOpt Pop DictFacts.

Definition is_suffix {A} (t' t : list A) : Prop := exists pre, t = pre ++ t'.
Lemma is_suffix_refl {A} (t : list A) : is_suffix t t. Proof. exists []. reflexivity. Qed.
Lemma is_suffix_trans {A} (a b c : list A) : is_suffix a b -> is_suffix b c -> is_suffix a c.
Proof. intros [p ->] [q ->]. exists (q ++ p). rewrite app_assoc. reflexivity. Qed.
Lemma is_suffix_app {A} (pre t : list A) : is_suffix t (pre ++ t). Proof. exists pre. reflexivity. Qed.
Lemma is_suffix_cons {A} (x : A) t : is_suffix t (x :: t). Proof. exact (is_suffix_app [x] t). Qed.

Definition nan_free (t : tape) : Prop := Forall (fun d => d <> DNaN) t.
Lemma nan_free_suffix t' t : is_suffix t' t -> nan_free t -> nan_free t'.
Proof. intros [pre ->] H. apply Forall_app in H. tauto. Qed.

(* sound tp Q t r: on a NaN-free tape t, an Ok result x of r satisfies Q, and its tape (tp x) is what r left of t.  The move
   operators and iterate steps are built from a few such computations by bind, case analysis and fuelled loops; outside this
   section `sound` is used through the rules below only: sound_intro / sound_of_ok to enter, sound_elim / sound_move to leave. *)
Definition sound {X} (tp : X -> tape) (Q : X -> Prop) (t : tape) (r : res X) : Prop :=
  nan_free t -> forall x, r = Ok x -> Q x /\ is_suffix (tp x) t.

(* the tape of a move's result (value, tape, constraint evaluations) *)
Definition mt {A} (x : A * tape * Z) : tape := snd (fst x).

Section Sound.
  Context {X : Type} (tp : X -> tape).

  Lemma sound_intro (Q : X -> Prop) t r : (nan_free t -> forall x, r = Ok x -> Q x /\ is_suffix (tp x) t) -> sound tp Q t r.
  Proof. exact id. Qed.

  Lemma sound_elim (Q : X -> Prop) t r x : sound tp Q t r -> nan_free t -> r = Ok x -> Q x /\ is_suffix (tp x) t.
  Proof. intros H Hn. exact (H Hn x). Qed.

  Lemma sound_ret (Q : X -> Prop) t x : Q x -> tp x = t -> sound tp Q t (Ok x).
  Proof. intros HQ <- _ y [= <-]. split; [exact HQ|apply is_suffix_refl]. Qed.

  Lemma sound_err (Q : X -> Prop) t e : sound tp Q t (Err e).
  Proof. intros _ x E. discriminate. Qed.

  Lemma sound_weaken (Q Q' : X -> Prop) t r : (forall x, Q x -> Q' x) -> sound tp Q t r -> sound tp Q' t r.
  Proof. intros HQ H Hn x E. destruct (H Hn x E). auto. Qed.

  Lemma sound_suffix (Q : X -> Prop) t t0 r : is_suffix t t0 -> sound tp Q t r -> sound tp Q t0 r.
  Proof.
    intros Hs H Hn x E. destruct (H (nan_free_suffix _ _ Hs Hn) x E) as [A B].
    split; [exact A|exact (is_suffix_trans _ _ _ B Hs)].
  Qed.

  Lemma sound_cons (Q : X -> Prop) d t r : (d <> DNaN -> sound tp Q t r) -> sound tp Q (d :: t) r.
  Proof. intros H Hn. inversion Hn; subst. apply (sound_suffix Q t); [apply is_suffix_cons|auto|exact Hn]. Qed.

  Lemma sound_int (Q : X -> Prop) (k : Z -> tape -> res X) e t :
    (forall z t0, sound tp Q t0 (k z t0)) -> sound tp Q t (match t with DZ z :: t0 => k z t0 | _ => Err e end).
  Proof. intros H. destruct t as [|[z| | | |] t0]; try apply sound_err. apply sound_cons. intros _. apply H. Qed.

  Lemma sound_float (Q : X -> Prop) (k : Z -> Z -> tape -> res X) e t :
    (forall m x t0, sound tp Q t0 (k m x t0)) -> sound tp Q t (match t with DF m x :: t0 => k m x t0 | _ => Err e end).
  Proof. intros H. destruct t as [|[| m x | | |] t0]; try apply sound_err. apply sound_cons. intros _. apply H. Qed.

  Lemma sound_bind {Y} (tq : Y -> tape) (Q : Y -> Prop) (R : X -> Prop) t (m : res Y) (k : Y -> res X) :
    sound tq Q t m -> (forall y, Q y -> sound tp R (tq y) (k y)) -> sound tp R t (bind m k).
  Proof.
    intros Hm Hk Hn x E. destruct m as [y|]; [|discriminate]. destruct (Hm Hn y eq_refl) as [A B].
    exact (sound_suffix R _ _ _ B (Hk y A) Hn x E).
  Qed.
End Sound.

Lemma sound_count {A} (P : A -> Prop) lo c t (r : res (A * tape * Z)) : lo <= c ->
  sound mt (fun '(a, _, c') => P a /\ c < c') t r -> sound mt (fun '(a, _, c') => P a /\ lo < c') t r.
Proof. intros Hl. apply sound_weaken. intros [[a t'] c'] [HP HC]. split; [exact HP|lia]. Qed.

Lemma sound_move {A} (P : A -> Prop) (C : Z -> Prop) t (r : res (A * tape * Z)) a t' c :
  sound mt (fun '(a, _, c) => P a /\ C c) t r -> nan_free t -> r = Ok (a, t', c) -> P a /\ is_suffix t' t /\ C c.
Proof. intros H Hn E. destruct (sound_elim mt _ _ _ _ H Hn E) as [[HP HC] Hs]. auto. Qed.

Lemma sound_of_ok {A} (P : A -> Prop) (C : Z -> Prop) t (r : res (A * tape * Z)) :
  (forall a t' c, r = Ok (a, t', c) -> P a /\ is_suffix t' t /\ C c) -> sound mt (fun '(a, _, c) => P a /\ C c) t r.
Proof. intros H. apply sound_intro. intros _ [[a t'] c] E. destruct (H a t' c E) as (HP & Hs & HC). auto. Qed.

Lemma dyadic_gt_spec am ae bm be m : m <= ae -> m <= be ->
  dyadic_gt am ae bm be = true <-> bm * 2 ^ (be - m) < am * 2 ^ (ae - m).
Proof.
  intros Ha Hb. unfold dyadic_gt. set (e := Z.min ae be). rewrite Z.ltb_lt.
  assert (Hp : 0 < 2 ^ (e - m)) by (apply Z.pow_pos_nonneg; lia).
  replace (be - m) with ((be - e) + (e - m)) by lia. replace (ae - m) with ((ae - e) + (e - m)) by lia.
  rewrite !Z.pow_add_r by (unfold e; lia). rewrite !Z.mul_assoc.
  split; intros H.
  - apply Z.mul_lt_mono_pos_r; assumption.
  - apply Z.mul_lt_mono_pos_r in H; assumption.
Qed.

Definition dims_ok (sp : space) : Prop := Forall (fun dim => 1 <= zlen dim) sp.

Lemma clip_int_range maxp r : 0 <= maxp -> r <> RNaN -> 0 <= clip_int maxp r <= maxp.
Proof. intros Hm Hr. destruct r; cbn; try lia. congruence. Qed.

Lemma map_zip_in_box {A} (s : space) (g : Z * A -> Z) (ok : A -> Prop) : dims_ok s ->
  (forall maxp x, 0 <= maxp -> ok x -> 0 <= g (maxp, x) <= maxp) ->
  forall xs, length xs = length s -> Forall ok xs -> in_box s (map g (zip (max_positions s) xs)).
Proof.
  unfold in_box, max_positions. intros Hs Hg. induction Hs as [|dim s Hd Hs IH]; intros [|x xs] Hl Hx; try discriminate; [constructor|].
  inversion Hx; subst. constructor; [|apply IH; [cbn in Hl; lia|assumption]].
  pose proof (Hg (zlen dim - 1) x ltac:(lia) H1). lia.
Qed.

Lemma move_part_in_box (s : space) : dims_ok s -> forall p velo, length p = length s -> length velo = length s ->
  in_box s (move_part s p velo).
Proof.
  intros Hd p velo Hp Hv. apply (map_zip_in_box s _ (fun _ => True) Hd); [cbn; lia| |apply Forall_forall; trivial].
  rewrite zip_length; congruence.
Qed.

Section CoreFacts.
  Variable sp : space.
  Variable cons : values -> bool.
  Hypothesis Hdims : dims_ok sp.

  Definition emit_ok (p : pos) : Prop := in_box sp p /\ feasible sp cons p = Ok true.

  Lemma emit_ok_cons p v : emit_ok p -> position2value sp p = Ok v -> cons v = true.
  Proof. intros [_ Hf] Hp. unfold feasible, not_in_constraint in Hf. rewrite Hp in Hf. injection Hf as ->. reflexivity. Qed.

  Lemma draw_position_spec dims : forall t p t', draw_position dims t = Ok (p, t') ->
    Forall2 (fun d i => 0 <= i < d) dims p /\ t = map DZ p ++ t'.
  Proof.
    induction dims as [|d dims IH]; intros t p t' H; cbn in H.
    - injection H as <- <-. split; [constructor|reflexivity].
    - destruct t as [|[z| | | |] t0]; try discriminate.
      destruct ((0 <=? z) && (z <? d)) eqn:R; [|discriminate].
      destruct (draw_position dims t0) as [[p0 t1]|] eqn:E; cbn in H; [|discriminate]. injection H as <- <-.
      destruct (IH _ _ _ E) as [A ->]. apply andb_prop in R. destruct R as [R1 R2].
      split; [constructor; [lia|assumption]|reflexivity].
  Qed.

  Lemma in_box_dim_sizes p : Forall2 (fun d i => 0 <= i < d) (dim_sizes sp) p <-> in_box sp p.
  Proof.
    unfold in_box, dim_sizes. clear Hdims. revert p. induction sp as [|dim s IH]; intros p; cbn.
    - split; intros H; inversion H; constructor.
    - split; intros H; inversion H; subst; constructor; try assumption; apply IH; assumption.
  Qed.

  Lemma draw_position_complete p t : in_box sp p -> draw_position (dim_sizes sp) (map DZ p ++ t) = Ok (p, t).
  Proof.
    intros H. apply in_box_dim_sizes in H. revert H. generalize (dim_sizes sp). intros dims H.
    induction H as [|d i dims p Hi _ IH]; cbn; [reflexivity|].
    replace ((0 <=? i) && (i <? d)) with true by (symmetry; apply andb_true_intro; split; [apply Z.leb_le|apply Z.ltb_lt]; lia).
    rewrite IH. reflexivity.
  Qed.

  Lemma move_random_ok fuel : forall t c p t' c', move_random sp cons fuel t c = Ok (p, t', c') ->
    emit_ok p /\ is_suffix t' t /\ c < c'.
  Proof.
    induction fuel as [|f IH]; intros t c p t' c' H; cbn in H; [discriminate|].
    destruct (draw_position (dim_sizes sp) t) as [[q t1]|] eqn:E; cbn in H; [|discriminate].
    destruct (draw_position_spec _ _ _ _ E) as [Hb ->].
    destruct (feasible sp cons q) as [[|]|] eqn:F; cbn in H; try discriminate.
    - injection H as <- <- <-. split; [split; [apply in_box_dim_sizes; assumption|assumption]|]. split; [apply is_suffix_app|lia].
    - destruct (IH _ _ _ _ _ H) as (A & B & C). split; [assumption|]. split; [|lia].
      exact (is_suffix_trans _ _ _ B (is_suffix_app _ _)).
  Qed.

  Lemma move_random_exit f t c p t' : draw_position (dim_sizes sp) t = Ok (p, t') -> feasible sp cons p = Ok true ->
    move_random sp cons (S f) t c = Ok (p, t', c + 1).
  Proof. intros E F. cbn. rewrite E. cbn. rewrite F. reflexivity. Qed.
  Lemma move_random_retry f t c p t' : draw_position (dim_sizes sp) t = Ok (p, t') -> feasible sp cons p = Ok false ->
    move_random sp cons (S f) t c = move_random sp cons f t' (c + 1).
  Proof. intros E F. cbn. rewrite E. cbn. rewrite F. reflexivity. Qed.

  Theorem move_random_first_feasible (rejected : list pos) (p : pos) (rest : tape) c :
    Forall (fun q => in_box sp q /\ feasible sp cons q = Ok false) rejected ->
    in_box sp p -> feasible sp cons p = Ok true ->
    forall fuel, (length rejected < fuel)%nat ->
    move_random sp cons fuel (flat_map (map DZ) rejected ++ map DZ p ++ rest) c
      = Ok (p, rest, c + Z.of_nat (length rejected) + 1).
  Proof.
    intros Hr Hp Hf. revert c. induction Hr as [|q rej [Hq Hqf] _ IH]; intros c fuel Hfuel.
    - destruct fuel; [cbn in Hfuel; lia|]. cbn [flat_map app length]. rewrite (move_random_exit _ _ _ p rest); [f_equal; f_equal; lia| |assumption].
      apply draw_position_complete. assumption.
    - destruct fuel; [cbn in Hfuel; lia|]. cbn [flat_map length]. rewrite <- app_assoc.
      rewrite (move_random_retry _ _ _ q (flat_map (map DZ) rej ++ map DZ p ++ rest)); [| apply draw_position_complete; assumption|assumption].
      rewrite IH by (cbn in Hfuel; lia). f_equal. f_equal. lia.
  Qed.

  Lemma read_reals_sound n : forall t,
    sound snd (fun r => length (fst r) = n /\ Forall (fun x => x <> XNaN) (fst r)) t (read_reals n t).
  Proof.
    induction n as [|n IH]; intros t; cbn [read_reals]; [apply sound_ret; [split; [reflexivity|constructor]|reflexivity]|].
    destruct t as [|d t0]; [apply sound_err|]. apply sound_cons. intros Hd.
    destruct (xreal_of_draw d) as [x|] eqn:Ex; [|apply sound_err]. cbn [bind].
    eapply sound_bind; [apply IH|]. intros [xs t1] [Hl Hx]. apply sound_ret; [|reflexivity]. cbn in *.
    split; [congruence|]. constructor; [|exact Hx]. destruct d; inversion Ex; subst; congruence.
  Qed.

  Lemma clip_all_in_box (rs : list rint_t) : length rs = length sp -> Forall (fun r => r <> RNaN) rs ->
    in_box sp (map (fun mr => clip_int (fst mr) (snd mr)) (zip (max_positions sp) rs)).
  Proof. apply (map_zip_in_box sp _ _ Hdims). intros maxp r. apply clip_int_range. Qed.

  Lemma conv2pos_ok fuel xs t c p t' c' :
    length xs = length sp -> Forall (fun x => x <> XNaN) xs ->
    conv2pos sp cons fuel xs t c = Ok (p, t', c') -> in_box sp p /\ is_suffix t' t /\ c <= c'.
  Proof.
    intros Hl Hx H. unfold conv2pos in H. destruct (far_outside sp (map rint_x xs)).
    - destruct (move_random_ok _ _ _ _ _ _ H) as ((A & _) & B & C). split; [assumption|]. split; [assumption|lia].
    - injection H as <- <- <-. split; [|split; [apply is_suffix_refl|lia]].
      apply clip_all_in_box; [rewrite map_length; assumption|].
      apply Forall_map. eapply Forall_impl; [|exact Hx]. intros [| | |]; cbn; congruence.
  Qed.

  Lemma move_random_sound fuel t c : sound mt (fun '(p, _, c') => emit_ok p /\ c < c') t (move_random sp cons fuel t c).
  Proof. apply sound_of_ok. intros p t' c'. apply move_random_ok. Qed.

  Lemma conv2pos_sound fuel xs t c : length xs = length sp -> Forall (fun x => x <> XNaN) xs ->
    sound mt (fun '(p, _, c') => in_box sp p /\ c <= c') t (conv2pos sp cons fuel xs t c).
  Proof. intros Hl Hx. apply sound_of_ok. intros p t' c'. apply conv2pos_ok; assumption. Qed.

  Lemma rint_dyadic_int z : rint_dyadic z 0 = z.
  Proof. unfold rint_dyadic. cbn. lia. Qed.

  (* the escape route of move_climb: a sample far outside the box turns the candidate into a fresh random point *)
  Lemma conv2pos_far fuel xs t c : far_outside sp (map rint_x xs) = true ->
    conv2pos sp cons fuel xs t c = move_random sp cons fuel t c.
  Proof. intros H. unfold conv2pos. rewrite H. reflexivity. Qed.

  (* `if not_in_constraint(p): return p` for an in-box p, else a fallback that is a feasible move of its own *)
  Lemma feasible_or_sound p t c lo (r : res (pos * tape * Z)) : in_box sp p -> lo <= c ->
    sound mt (fun '(q, _, c') => emit_ok q /\ c + 1 < c') t r ->
    sound mt (fun '(q, _, c') => emit_ok q /\ lo < c') t (do ok <- feasible sp cons p; if ok then Ok (p, t, c + 1) else r).
  Proof.
    intros Hb Hl Hr. destruct (feasible sp cons p) as [[|]|] eqn:F; cbn [bind]; [|apply (sound_count _ lo (c + 1)); [lia|exact Hr]|apply sound_err].
    apply sound_ret; [|reflexivity]. split; [split; assumption|lia].
  Qed.

  Lemma move_climb_sound fuel : forall t c, sound mt (fun '(p, _, c') => emit_ok p /\ c < c') t (move_climb sp cons fuel t c).
  Proof.
    induction fuel as [|f IH]; intros t c; [apply sound_err|].
    eapply sound_bind; [apply read_reals_sound|]. intros [xs t1] [Hl Hx].
    eapply sound_bind; [apply conv2pos_sound; assumption|]. intros [[p t2] c2] [Hb Hc].
    apply feasible_or_sound; [exact Hb|exact Hc|apply IH].
  Qed.

  Lemma move_climb_ok fuel t c p t' c' : nan_free t ->
    move_climb sp cons fuel t c = Ok (p, t', c') -> emit_ok p /\ is_suffix t' t /\ c < c'.
  Proof. apply sound_move, move_climb_sound. Qed.

  Lemma move_climb_exit f t c xs t1 q t2 c2 :
    read_reals (length sp) t = Ok (xs, t1) -> conv2pos sp cons (S f) xs t1 c = Ok (q, t2, c2) ->
    feasible sp cons q = Ok true -> move_climb sp cons (S f) t c = Ok (q, t2, c2 + 1).
  Proof. intros E Ec F. cbn [move_climb]. rewrite E. cbn [bind fst snd]. rewrite Ec. cbn [bind]. rewrite F. reflexivity. Qed.

  (* the random_iteration decorator: a fresh feasible random point or the body's result; random_iteration is rand_iter with the
     count started at 0 *)
  Lemma rand_iter_sound fuel rrp (Q : pos * tape * Z -> Prop) t c body :
    (forall p t' c', emit_ok p -> c < c' -> Q (p, t', c')) -> (forall t0, sound mt Q t0 (body t0)) ->
    sound mt Q t (rand_iter sp cons fuel rrp t c body).
  Proof.
    intros HQ Hb. apply sound_float. intros um ue t0.
    destruct (dyadic_gt _ _ um ue); [|apply Hb].
    apply (sound_weaken mt (fun '(p, _, c') => emit_ok p /\ c < c')); [|apply move_random_sound].
    intros [[p t'] c'] [A B]. exact (HQ p t' c' A B).
  Qed.

  Lemma random_iteration_sound rm re fuel (Q : pos * tape * Z -> Prop) t body :
    (forall p t' c', emit_ok p -> 0 < c' -> Q (p, t', c')) -> (forall t0, sound mt Q t0 (body t0)) ->
    sound mt Q t (random_iteration sp cons rm re fuel t body).
  Proof. exact (rand_iter_sound fuel (rm, re) Q t 0 body). Qed.
End CoreFacts.
